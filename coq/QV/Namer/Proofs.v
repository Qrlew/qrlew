From QV Require Import Namer.Model.
Open Scope N_scope.

Lemma content_state_independent s1 s2 p h : snd (step s1 (RContent p h)) = snd (step s2 (RContent p h)).
Proof. reflexivity. Qed.

Lemma content_keeps_state s p h : fst (step s (RContent p h)) = s.
Proof. reflexivity. Qed.

Lemma lookup_set s k v k' : lookup (set s k v) k' = if String.eqb k' k then Some v else lookup s k'.
Proof.
  induction s as [|[k0 n] t IH]; cbn [set lookup]; [reflexivity|].
  destruct (String.eqb_spec k k0) as [->|Hk]; cbn [lookup].
  - now destruct (String.eqb k' k0).
  - rewrite IH. destruct (String.eqb_spec k' k0) as [->|]; [|reflexivity].
    now apply not_eq_sym, String.eqb_neq in Hk as ->.
Qed.

(* the number handed out is the one stored: the k-th request for a prefix is numbered k-1 (count_first,
   count_succ, count_next), other prefixes do not interfere (count_other) *)
Lemma count_fst s k : fst (count s k) = set s k (snd (count s k)).
Proof. unfold count. now destruct (lookup s k). Qed.

Lemma count_other s k k' : k' <> k -> lookup (fst (count s k)) k' = lookup s k'.
Proof. intros Hne. rewrite count_fst, lookup_set. now apply String.eqb_neq in Hne as ->. Qed.

Lemma count_next s k : lookup (fst (count s k)) k = Some (snd (count s k)).
Proof. now rewrite count_fst, lookup_set, String.eqb_refl. Qed.

Lemma count_succ s k n : lookup s k = Some n -> snd (count s k) = n + 1.
Proof. intros H. unfold count. rewrite H. reflexivity. Qed.

Lemma count_first s k : lookup s k = None -> snd (count s k) = 0.
Proof. intros H. unfold count. rewrite H. reflexivity. Qed.

Lemma mod_mul_split x b m : b <> 0 -> m <> 0 ->
  (x mod (b * m)) mod b = x mod b /\ (x mod (b * m)) / b = (x / b) mod m.
Proof.
  intros Hb Hm. rewrite N.mod_mul_r, N.mul_comm by assumption. split.
  - now rewrite N.mod_add, N.mod_mod.
  - rewrite N.add_comm, N.div_add_l, (N.div_small (x mod b)), N.add_0_r by (auto; now apply N.mod_lt). reflexivity.
Qed.

(* names are not injective in the hash: contents whose hashes agree modulo 37^4 share a name *)
Lemma content_name_collision_refuted : exists h1 h2, h1 <> h2 /\ name_from_content "map" h1 = name_from_content "map" h2.
Proof. exists 0, (37 ^ 4). split; [discriminate|]. vm_compute. reflexivity. Qed.
