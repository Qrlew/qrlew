(* C07 / C14 — the flags Join::schema gives its output fields, against the row-level model:
   per field (optional, unique) of the left input, of the right input and of the output *)
From QV Require Import Rel.Rows Corr.Lib.

Definition field_flags := (bool * bool)%type.
Definition join_case := (jkind * (bool * bool) * list field_flags * list field_flags * list field_flags)%type.

(* the side an outer join pads becomes optional (it can only stay or become optional: the ON filter may
   have removed NULL from the non-preserved side); a left field keeps its unique flag iff the right key
   is unique, and conversely *)
Definition field_ok (pad keep : bool) (i o : field_flags) : bool :=
  (implb pad (fst o)) && (implb (fst o) (pad || fst i)) && Bool.eqb (snd o) (keep && snd i).
Fixpoint fields_ok (pad keep : bool) (ins outs : list field_flags) : bool :=
  match ins, outs with
  | [], [] => true
  | i :: ins', o :: outs' => field_ok pad keep i o && fields_ok pad keep ins' outs'
  | _, _ => false
  end.
Definition join_flags_ok (c : join_case) : bool :=
  let '(k, (ul, ur), lf, rf, out) := c in
  let padl := match k with JRight | JFull => true | _ => false end in
  let padr := match k with JLeft | JFull => true | _ => false end in
  (List.length out =? List.length lf + List.length rf)%nat &&
  fields_ok padl (join_keeps_left ul ur) lf (firstn (List.length lf) out) &&
  fields_ok padr (join_keeps_right ul ur) rf (skipn (List.length lf) out).
Definition join_flags_check cases := bad_indices join_flags_ok cases.

(* Set::schema: no constraint survives a set operation (C14_union_unique_refuted) *)
Definition set_flags_ok (out : list field_flags) : bool := forallb (fun f => negb (snd f)) out.

(* Reduce::schema_aggregate: (number of grouping keys, per output field: is FIRST, its input column is
   unique, declared unique).  A FIRST is unique when it is the single grouping key (C14_group_key_unique)
   or when its input column is (C14_first_of_unique_column); nothing else is *)
Definition reduce_case := (nat * list (bool * bool * bool))%type.
Definition reduce_flags_ok (c : reduce_case) : bool :=
  let '(nkeys, fs) := c in
  let nfirst := List.length (filter (fun f => fst (fst f)) fs) in
  forallb (fun f => let '(isfirst, inu, outu) := f in
     Bool.eqb outu (isfirst && (((nfirst =? 1)%nat && (nkeys =? 1)%nat) || inu))) fs.

Inductive flags_case := FJoin (c : join_case) | FSet (out : list field_flags) | FReduce (c : reduce_case).
Definition flags_ok (c : flags_case) : bool :=
  match c with FJoin c => join_flags_ok c | FSet o => set_flags_ok o | FReduce c => reduce_flags_ok c end.
Definition flags_check cases := bad_indices flags_ok cases.
