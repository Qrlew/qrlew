(* C01 correspondence: per privacy unit, the partial sums v_g of a summed column over the groups
   and their clipped counterparts w_g, both read off the execution of the really rewritten
   relation on SQLite, against the model of QV/DP/Clip.v.  sqrt is not computable on rationals:
   the model's output is checked through the characterisation proved in Props/C01.v
   (C01_clip_inactive: w = v when |v|^2 <= C^2;  C01_clip_active: w = (C/|v|) v and |w|^2 = C^2), i.e.
   w_g^2 |v|^2 = C^2 v_g^2 with the sign of v_g. *)
From Coq Require Import QArith Qabs Qminmax ZArith List Bool.
From QV Require Import Corr.Lib.
Import ListNotations.
Open Scope Q_scope.

Definition fq (m e : Z) : Q :=
  if (0 <=? e)%Z then inject_Z (m * 2 ^ e) else Qmake m (Z.to_pos (2 ^ (- e))).

Definition tol : Q := 1 # 1000000.
Definition close (a b : Q) : bool := Qle_bool (Qabs (a - b)) (tol * Qmax 1 (Qmax (Qabs a) (Qabs b))).

Fixpoint qsumsq (l : list Q) : Q := match l with [] => 0 | x :: t => x * x + qsumsq t end.

Definition c01_case := (Q * list (Q * Q))%type.

Definition c01_ok (c : c01_case) : bool :=
  let '(C, vw) := c in
  let n2 := qsumsq (map fst vw) in
  if Qle_bool n2 (C * C) then forallb (fun p => close (fst p) (snd p)) vw
  else close (qsumsq (map snd vw)) (C * C)
       && forallb (fun p => Qle_bool 0 (fst p * snd p)
                            && close (snd p * snd p * n2) (C * C * (fst p * fst p))) vw.

Definition check (cases : list c01_case) : list N := bad_indices c01_ok cases.
