(* C12 — pinned statements: conversions are value-preserving injections (numeric core and
   the Optional / List / Struct liftings). *)
From Coq Require Import ZArith List Reals Lia.
From Flocq Require Import Core IEEE754.Binary IEEE754.Bits.
From QV Require Import DataType.Inject DataType.InjectProofs.

(* Integer -> Float: the image [value(min), value(max)] of an interval contains every converted point *)
Theorem C12_int_to_float_image : forall a b, (Z.abs a <= 2 ^ 63)%Z -> (Z.abs b <= 2 ^ 63)%Z -> (a <= b)%Z ->
  (B2R 53 1024 (i2f a) <= B2R 53 1024 (i2f b))%R.
Proof.
  intros a b Ha Hb Hab. rewrite (proj1 (i2f_correct a Ha)), (proj1 (i2f_correct b Hb)).
  apply round_le; [apply valid_exp64|apply valid_rnd_N|]. now apply IZR_le.
Qed.

(* ... it preserves the value and is injective up to 2^53 *)
Theorem C12_int_to_float_exact : forall i, (Z.abs i <= 2 ^ 53)%Z -> B2R 53 1024 (i2f i) = IZR i.
Proof.
  intros i Hi. rewrite (proj1 (i2f_correct i ltac:(lia))).
  apply round_generic; [apply valid_rnd_N|now apply small_int_format].
Qed.

Theorem C12_int_to_float_injective_partial : forall a b,
  (Z.abs a <= 2 ^ 53)%Z -> (Z.abs b <= 2 ^ 53)%Z -> i2f a = i2f b -> a = b.
Proof.
  intros a b Ha Hb E. apply eq_IZR. now rewrite <- (C12_int_to_float_exact a Ha), <- (C12_int_to_float_exact b Hb), E.
Qed.

(* ... and is NOT injective beyond (the full statement of the property is false of the
   unchanged code: known finding C12-int-float-above-2p53) *)
Theorem C12_int_to_float_injective_refuted :
  exists a b, a <> b /\ bits_of_b64 (i2f a) = bits_of_b64 (i2f b).
Proof. exists (2 ^ 53)%Z, (2 ^ 53 + 1)%Z. split; [lia|]. vm_compute. reflexivity. Qed.

(* Float -> Integer accepts x only if converting back gives x *)
Theorem C12_float_to_int_round_trip : forall x i, f2i x = Some i -> feq (i2f i) x = true.
Proof.
  intros x i. unfold f2i. destruct (flt x (i2f (2 ^ 63))); [|discriminate]. cbn [andb].
  destruct (feq (i2f (f_as_i64 x)) x) eqn:E; [intros [= <-]; exact E|discriminate].
Qed.

(* Boolean <-> Integer *)
Theorem C12_bool_int_round_trip : forall b, i2b (b2i b) = Some b.
Proof. destruct b; reflexivity. Qed.
Theorem C12_int_to_bool_lossy_refused : forall i, (i <> 0 -> i <> 1 -> i2b i = None)%Z.
Proof. destruct i as [|[p|p|]|p]; cbn; congruence. Qed.

(* liftings preserve injectivity and membership *)
Theorem C12_optional_injective : forall (A B : Type) (f : A -> option B), injective f -> injective (opt_lift f).
Proof.
  intros A B f Hf x x' y Hx Hx'. apply opt_lift_some in Hx, Hx'.
  destruct x, x', y; try easy. f_equal. eapply Hf; eauto.
Qed.
Theorem C12_list_injective : forall (A B : Type) (f : A -> option B), injective f -> injective (list_lift f).
Proof.
  intros A B f Hf l. induction l as [|a l IH]; intros [|a' l'] bs H H'; cbn in H, H'; try reflexivity.
  - injection H as <-. now apply lift_cons_some in H' as (? & ? & _ & _ & ?).
  - injection H' as <-. now apply lift_cons_some in H as (? & ? & _ & _ & ?).
  - apply lift_cons_some in H as (b & t & Ha & Hl & ->). apply lift_cons_some in H' as (b' & t' & Ha' & Hl' & [= <- <-]).
    f_equal; [eapply Hf|eapply IH]; eauto.
Qed.
Theorem C12_struct_injective : forall (A B : Type) (fs : list (A -> option B)),
  Forall injective fs -> injective (struct_lift fs).
Proof.
  intros A B fs. induction fs as [|f fs IH]; intros Hfs [|a l] [|a' l'] bs H H'; cbn in H, H';
    try discriminate; [reflexivity|]. inversion Hfs as [|? ? Hf Hfs'].
  apply lift_cons_some in H as (b & t & Ha & Hl & ->). apply lift_cons_some in H' as (b' & t' & Ha' & Hl' & [= <- <-]).
  f_equal; [eapply Hf|eapply IH]; eauto.
Qed.
Theorem C12_list_image : forall (A B : Type) (f : A -> option B) (P : A -> Prop) (Q : B -> Prop),
  (forall a b, P a -> f a = Some b -> Q b) ->
  forall l l', Forall P l -> list_lift f l = Some l' -> Forall Q l'.
Proof.
  intros A B f P Q H l. induction l as [|a l IH]; intros l' Hl E; cbn in E.
  - injection E as <-. constructor.
  - inversion Hl. apply lift_cons_some in E as (b & t & Ha & Ht & ->). constructor; eauto.
Qed.

Check C12_int_to_float_image.
Print Assumptions C12_int_to_float_image.
Print Assumptions C12_int_to_float_exact.
Print Assumptions C12_int_to_float_injective_partial.
Print Assumptions C12_int_to_float_injective_refuted.
Print Assumptions C12_float_to_int_round_trip.
Print Assumptions C12_bool_int_round_trip.
Print Assumptions C12_int_to_bool_lossy_refused.
Print Assumptions C12_optional_injective.
Print Assumptions C12_list_injective.
Print Assumptions C12_struct_injective.
Print Assumptions C12_list_image.
