(* C09 - the DP recombination is exact when noise and clipping are inactive; pinned statements *)
From QV Require Import DP.Exact DP.ExactProofs.
Open Scope Q_scope.

(* AVG reassembled from the sums is the mean of the non-null values *)
Theorem C09_avg_exact : forall l, nonnull l <> [] -> dp_avg l == mean (nonnull l).
Proof. intros l H. unfold dp_avg. rewrite (Qmax_1_count l H). reflexivity. Qed.
Print Assumptions C09_avg_exact.

(* VAR reassembled from the sums is the population variance of the non-null values *)
Theorem C09_var_exact : forall l, nonnull l <> [] -> dp_var l == variance (nonnull l).
Proof.
  intros l H. unfold dp_var. rewrite (Qmax_1_count l H). unfold s_square, s_sum, s_count.
  rewrite <- (variance_moments _ H). apply Q.max_r, variance_nonneg, H.
Qed.
Print Assumptions C09_var_exact.

Theorem C09_variance_moments : forall l, l <> [] ->
  variance l == qsumsq l / qlen l - (qsum l / qlen l) * (qsum l / qlen l).
Proof. exact variance_moments. Qed.
Print Assumptions C09_variance_moments.

(* empty groups (public keys without data): count and sum are zero, the mean is 0 / 1 *)
Theorem C09_empty_group : forall l, nonnull l = [] ->
  dp_count l == 0 /\ dp_sum l == 0 /\ dp_avg l == 0 /\ dp_var l == 0.
Proof.
  intros l H. unfold dp_count, dp_sum, dp_avg, dp_var, s_count, s_sum, s_square. rewrite H. vm_compute. tauto.
Qed.
Print Assumptions C09_empty_group.

(* DISTINCT aggregates are the DISTINCT aggregates of the data when no value is shared by two units *)
Theorem C09_distinct_exact : forall a rows,
  shared rows = false -> dp_value a true rows = eval_agg a (vdedup (map snd rows)).
Proof.
  intros a rows H. unfold dp_value. rewrite ddedup_values; [reflexivity|]. intros r r'. apply unshared, H.
Qed.
Print Assumptions C09_distinct_exact.

(* ... and are not otherwise: known finding C09-distinct-value-shared-by-units *)
Theorem C09_distinct_shared_refuted :
  exists rows, shared rows = true /\ ~ dp_value ACount true rows == eval_agg ACount (vdedup (map snd rows)).
Proof. exists [(1%Z, Some 5); (2%Z, Some 5)]. split; [reflexivity|]. vm_compute. discriminate. Qed.
Print Assumptions C09_distinct_shared_refuted.

(* the recombination before the repair (mean not squared) *)
Theorem C09_var_old_refuted : exists l, nonnull l <> [] /\ ~ dp_var_old l == variance (nonnull l).
Proof. exists [Some 2; Some 4]. split; [discriminate|]. vm_compute. discriminate. Qed.
Print Assumptions C09_var_old_refuted.

(* pagination above the aggregation (ORDER BY the keys LIMIT lim OFFSET off): group-wise exactness carries over to windows *)
Theorem C09_window_exact : forall (G R : Type) (dp ex : G -> R) (eqR : R -> R -> Prop) lim off (groups : list G),
  (forall g, In g groups -> eqR (dp g) (ex g)) ->
  Forall2 eqR (window lim off (map dp groups)) (window lim off (map ex groups)).
Proof.
  intros G R dp ex eqR lim off groups H. rewrite !window_map.
  apply Forall2_map_in. intros g Hg. apply H, (window_incl lim off groups), Hg.
Qed.
Print Assumptions C09_window_exact.
