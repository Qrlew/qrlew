(* C13 — pinned statements: the rewriting search is complete, well-typed, best-scoring. *)
From QV Require Import Rules.Model Rules.Search.

(* the enumeration (after elimination) returns exactly the consistent rule assignments *)
Theorem C13_select_exact : forall t d, In d (select (eliminate t)) <-> consistent t d.
Proof. exact select_eliminate_spec. Qed.

(* a rewriting is returned exactly when a consistent assignment with an acceptable root exists;
   otherwise the property is reported unreachable (None) *)
Theorem C13_rewrite_some_iff : forall w acc t,
  (exists d, best w acc t = Some d) <-> (exists d, consistent t d /\ acc (dout d) = true).
Proof. exact best_some_iff. Qed.

Theorem C13_unreachable_iff : forall w acc t,
  best w acc t = None <-> (forall d, consistent t d -> acc (dout d) = false).
Proof.
  intros w acc t. split.
  - intros E d Hc. apply not_true_is_false. intros Ha.
    destruct (proj2 (best_some_iff w acc t)) as [m Hm]; [eauto|congruence].
  - intros H. destruct (best w acc t) as [m|] eqn:E; [|reflexivity].
    apply best_sound in E as [Hc Ha]. now rewrite (H m Hc) in Ha.
Qed.

(* the derivation applied is well-typed ... *)
Theorem C13_applied_consistent : forall w acc t d,
  best w acc t = Some d -> consistent t d /\ acc (dout d) = true.
Proof. exact best_sound. Qed.

(* ... and no other acceptable consistent derivation scores strictly higher, whatever the weights *)
Theorem C13_best_optimal : forall w acc t d d',
  best w acc t = Some d -> consistent t d' -> acc (dout d') = true -> (score w d' <= score w d)%Z.
Proof. exact best_optimal. Qed.

(* non-vacuity: SELECT sum(x) FROM protected, with synthetic data *)
Example C13_example :
  let tbl := Node (KTable true) [R [] Private; R [] PUP; R [] SD] [] in
  let mp := Node KMap [R [Public] Public; R [Published] Published; R [DP] Published; R [PUP] PUP; R [SD] SD] [tbl] in
  let rd := Node KReduce [R [Public] Public; R [Published] Published; R [SD] SD; R [PUP] PUP; R [PUP] DP] [mp] in
  length (select (eliminate rd)) = 3%nat /\
  rewrite_dp rd = Some (D (R [PUP] DP) [D (R [PUP] PUP) [D (R [] PUP) []]]) /\
  rewrite_pup rd = Some (D (R [PUP] PUP) [D (R [PUP] PUP) [D (R [] PUP) []]]).
Proof. vm_compute. repeat split. Qed.

Check C13_select_exact.
Print Assumptions C13_select_exact.
Print Assumptions C13_rewrite_some_iff.
Print Assumptions C13_unreachable_iff.
Print Assumptions C13_applied_consistent.
Print Assumptions C13_best_optimal.
