(* C07 — pinned statements.  (1) the declared size interval contains the number of rows of every
   execution, by induction over the relation: Map (LIMIT / OFFSET), Reduce (grouped, or one row without
   GROUP BY even on an empty input), Join (inner / cross / outer, with the rows an outer join preserves),
   set operations; the one hypothesis left, join_ok (the statements also carry sizes_ok, which no proof uses), excludes outer joins whose unique flag sits on a
   preserved side, for which (2) Join::size is NOT sound (refuted, known finding: the repository's own
   test pins max(left, right) for them);
   (3) the schema of a Map: every projected value of a row that passes the filter lies in the type
   the Map declares for it (integer columns; from the C10 and C06 theorems; C07_map_row_typed, near the end);
   (4)-(7), introduced where they stand: joins at row level (cardinalities, schema), the size half on the row-level
   evaluator, and on the column-level fragment. *)
From QV Require Import Intervals.Model Fn.IntExpr Fn.IntExprProofs Expr.Filter Expr.FilterProofs Expr.FilterNull.
From QV Require Import Rel.Size Rel.SizeProofs Rel.Rows Rel.RowsProofs Rel.Eval Rel.EvalProofs Rel.Cols Rel.ColsProofs.
Open Scope Z_scope.

Theorem C07_size_sound_partial : forall e m,
  sizes_ok e = true -> join_ok e = true ->
  card e m -> fst (size_of (skeleton e)) <= m <= snd (size_of (skeleton e)).
Proof. exact size_sound. Qed.

(* without unique flags there is no hypothesis on the shape at all *)
Theorem C07_size_sound_no_unique_flag : forall e m,
  sizes_ok e = true -> no_flags e = true ->
  card e m -> fst (size_of (skeleton e)) <= m <= snd (size_of (skeleton e)).
Proof. intros e m Hs Hn. apply size_sound; [exact Hs|apply no_flags_join_ok; exact Hn]. Qed.

(* the pinned test test_build_join_with_unique_constraint expects int[0 1000] for a FULL / RIGHT OUTER join
   of a 1000-row table with a 20-row table carrying the unique key; 1019 rows are possible *)
Theorem C07_join_size_outer_refuted : exists e m,
  sizes_ok e = true /\ card e m /\ snd (size_of (skeleton e)) < m.
Proof.
  exists (EJoin JFull true false (ETable (0, 5)) (ETable (0, 2))), 6.
  split; [reflexivity|]. split; [|vm_compute; reflexivity].
  apply (CJoin JFull true false (ETable (0, 5)) (ETable (0, 2)) 5 2 6).
  - constructor; cbn; lia.
  - constructor; cbn; lia.
  - lia.
  - unfold i64_max. lia.
  - (* the two right rows match the same left row: 2 pairs, 4 left rows without a match *)
    exists 2, 4, 0. repeat split; lia.
Qed.

(* (4) joins at row level (Rel/Rows.v): the bag a join of each kind returns has a number of rows that
   meets the premises of [card] — the abstract cardinality semantics is derived, for joins, from rows:
   a unique flag on the right (left) key is read as "every left (right) row has at most one match" *)
Theorem C07_join_rows_card : forall k (ul ur : bool) el er P nl nr L R,
  card el (Z.of_nat (length L)) -> card er (Z.of_nat (length R)) ->
  (ur = true -> forall l, In l L -> (length (filter (P l) R) <= 1)%nat) ->
  (ul = true -> forall r, In r R -> (length (filter (fun l => P l r) L) <= 1)%nat) ->
  Z.of_nat (length (join_rows P k nl nr L R)) <= i64_max ->
  card (EJoin k ul ur el er) (Z.of_nat (length (join_rows P k nl nr L R))).
Proof. exact join_rows_card. Qed.

(* (5) Join::schema: every row a join returns lies in the schema it declares — the padded side of an
   outer join optional, the side narrowed by the ON condition narrowed (the narrowing itself is sound by
   the C10 theorem; here it is the hypothesis on fl / fr) *)
Theorem C07_join_rows_typed : forall k P sl sr fl fr L R,
  Forall (fun l => row_in l sl = true) L -> Forall (fun r => row_in r sr = true) R ->
  (forall l r, In l L -> In r R -> P l r = true -> row_in l fl = true /\ row_in r fr = true) ->
  length fl = length sl -> length fr = length sr ->
  Forall (fun x => row_in x (join_schema k sl sr fl fr) = true) (join_rows P k (length sl) (length sr) L R).
Proof.
  intros k P sl sr fl fr L R HL HR HP Hfl Hfr. rewrite Forall_forall in *. intros x Hx.
  apply in_join_rows in Hx as [(l & r & Hl & Hr & Hp & ->)|[(l & Hl & -> & Hk)|(r & Hr & -> & Hk)]].
  - destruct (HP l r Hl Hr Hp). destruct k; apply row_in_app; auto using row_in_optional.
  - destruct Hk as [-> | ->]; cbn [join_schema]; [rewrite <- Hfr|]; apply row_in_app; auto using row_in_optional, nulls_in.
  - destruct Hk as [-> | ->]; cbn [join_schema]; [rewrite <- Hfl|]; apply row_in_app; auto using row_in_optional, nulls_in.
Qed.

(* non-vacuity: users LEFT JOIN orders on the key; one user without order is padded with NULLs *)
Example C07_example_rows :
  let P := fun l r : list (option Z) => match nth 0 l None, nth 0 r None with Some a, Some b => a =? b | _, _ => false end in
  let L := [[Some 1; Some 20]; [Some 2; Some 30]] in let R := [[Some 1; Some 7]; [Some 1; Some 8]] in
  join_rows P JLeft 2 2 L R = [[Some 1; Some 20; Some 1; Some 7]; [Some 1; Some 20; Some 1; Some 8]; [Some 2; Some 30; None; None]].
Proof. vm_compute. reflexivity. Qed.

(* (6) the size half of the property on executions: a row-level evaluator of relational expressions over
   concrete conforming tables (filters and projections as arbitrary functions, LIMIT / OFFSET windows,
   grouping, the five join kinds with NULL padding, UNION / EXCEPT / INTERSECT with and without ALL)
   returns a number of rows inside the declared size interval; [wf] says: tables conform to their sizes,
   windows are non-negative, a unique flag means at most one match, counts fit in an i64 *)
Theorem C07_eval_size_sound : forall e, wf e -> sizes_ok (erase e) = true -> join_ok (erase e) = true ->
  fst (size_of (skeleton (erase e))) <= Z.of_nat (length (rows_of e)) <= snd (size_of (skeleton (erase e))).
Proof. exact eval_size_sound. Qed.

(* (7) on the column-level fragment (arbitrary filters, column selections, windows, equi-joins of the five
   kinds with any further condition, single-key grouping, COUNT, set operations) nothing is assumed about
   which rows match: tables conform to their sizes and honour their unique constraints, windows are non-negative and
   the row counts of joins and set operations fit in an i64 ([wfu], [wfs]); that a flagged join key gives at most one
   match is proved, not assumed.  This is the fragment the harness
   writes from the same tree as the SQL it executes on SQLite (Corr/Eval.v) *)
Theorem C07_fragment_size_sound : forall e, wfu e -> wfs e ->
  sizes_ok (erase (to_rexp e)) = true -> join_ok (erase (to_rexp e)) = true ->
  fst (size_of (skeleton (erase (to_rexp e)))) <= Z.of_nat (length (rows_c e)) <= snd (size_of (skeleton (erase (to_rexp e)))).
Proof. exact cexp_size_sound. Qed.

(* non-vacuity: (users LEFT JOIN orders ON the key) LIMIT 2, then COUNT without GROUP BY *)
Example C07_example_eval :
  let P := fun l r : list (option Z) => match nth 0 l None, nth 0 r None with Some a, Some b => a =? b | _, _ => false end in
  let users := XTable (0, 30) [[Some 1; Some 20]; [Some 2; Some 30]] in
  let orders := XTable (0, 60) [[Some 1; Some 7]; [Some 1; Some 8]] in
  let e := XReduce None (fun rows => [Some (Z.of_nat (length rows))])
             (XMap (fun _ => true) (fun r => r) (Some 2) None (XJoin JLeft false false P 2 2 users orders)) in
  rows_of e = [[Some 2]] /\ size_of (skeleton (erase e)) = (0, 2) /\ sizes_ok (erase e) = true /\ join_ok (erase e) = true.
Proof. vm_compute. repeat split. Qed.

(* Map::schema_exprs: the type of a projected column is the range of its expression over the input
   type narrowed by the filter *)
Definition map_column_type (t : tenv) (flt : pred) (e : expr) : option (list (Z * Z)) :=
  image CAP (narrow CAP t flt) e.

Theorem C07_map_row_typed : forall t flt e env y,
  typed CAP env t -> pred_ok flt -> consts_ok e -> peval env flt = true -> eval env e = Some y ->
  exists T, map_column_type t flt e = Some T /\ mem y T = true.
Proof.
  intros t flt e env y Ht Hf He Hp Hy.
  pose proof (narrow_sound CAP cap_ok2 flt env t Ht Hf Hp) as Ht'.
  destruct (expr_sound CAP cap_ok2 e env (narrow CAP t flt) y Ht' He Hy) as (T & ET & _ & MT & _).
  exists T. split; assumption.
Qed.

(* non-vacuity: orders LEFT JOIN users (unique key on the right side) limited to 10 rows *)
Example C07_example :
  let e := EMap (Some 10) (Some 2) (EJoin JLeft false true (ETable (0, 60)) (ETable (0, 30))) in
  sizes_ok e = true /\ join_ok e = true /\ size_of (skeleton e) = (0, 10).
Proof. vm_compute. repeat split. Qed.

(* an aggregation without GROUP BY over an input declared empty, FULL JOINed with a one-row relation *)
Example C07_example_degenerate :
  let e := EJoin JFull false false (EReduce false (EMap (Some 0) None (ETable (0, 30)))) (EMap (Some 1) None (ETable (0, 60))) in
  sizes_ok e = true /\ no_flags e = true /\ size_of (skeleton e) = (0, 2) /\ card e 2.
Proof.
  cbn zeta. split; [reflexivity|]. split; [reflexivity|]. split; [reflexivity|].
  apply (CJoin JFull false false _ _ 1 1 2).
  - apply (CReduceU _ 0). apply (CMap (Some 0) None _ 0 0); [constructor; cbn; lia|lia|cbn; lia|intros x Hx; injection Hx as <-; lia].
  - apply (CMap (Some 1) None _ 1 1); [constructor; cbn; lia|lia|cbn; lia|intros x Hx; injection Hx as <-; lia].
  - lia.
  - unfold i64_max. lia.
  - exists 0, 1, 1. repeat split; lia.
Qed.

Check C07_size_sound_partial.
Print Assumptions C07_size_sound_partial.
Print Assumptions C07_size_sound_no_unique_flag.
Print Assumptions C07_join_size_outer_refuted.
Print Assumptions C07_map_row_typed.
Print Assumptions C07_join_rows_card.
Print Assumptions C07_join_rows_typed.
Print Assumptions C07_eval_size_sound.
Print Assumptions C07_fragment_size_sound.
