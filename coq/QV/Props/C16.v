(* C16 - compilation is deterministic; pinned statements about the naming state machine *)
From QV Require Import Namer.Model Namer.Proofs.

(* a compilation whose every generated name is derived from content gets the same names under
   every schedule: any interleaving with other compilations, threads, counter requests and resets,
   from any initial state of the process-wide counter *)
Theorem C16_content_names_schedule_independent : forall rs,
  forallb is_content (mine rs) = true -> forall s, run_tagged s rs = run [] (mine rs).
Proof.
  induction rs as [|[tag r] t IH]; intros Hc s; [reflexivity|].
  unfold mine in *. cbn [filter fst map snd] in *. destruct tag; cbn [run_tagged].
  - cbn [map forallb snd] in Hc. apply andb_true_iff in Hc as [Hr Ht].
    destruct r as [p|p|p h|]; try discriminate. cbn [step run map snd]. f_equal. apply IH, Ht.
  - destruct (step s r) as [s' o]. apply IH, Hc.
Qed.
Print Assumptions C16_content_names_schedule_independent.

Theorem C16_two_schedules : forall rs1 rs2 s1 s2,
  mine rs1 = mine rs2 -> forallb is_content (mine rs1) = true -> run_tagged s1 rs1 = run_tagged s2 rs2.
Proof.
  intros rs1 rs2 s1 s2 He Hc. rewrite !C16_content_names_schedule_independent, He by congruence. reflexivity.
Qed.
Print Assumptions C16_two_schedules.

(* a name or id taken from the counter depends on the history (known finding: random()) *)
Theorem C16_counter_names_refuted : exists p s1 s2, snd (step s1 (RNew p)) <> snd (step s2 (RNew p)).
Proof. exists "map"%string, [], [("map"%string, 0%N)]. vm_compute. discriminate. Qed.
Print Assumptions C16_counter_names_refuted.

Theorem C16_counter_ids_refuted : exists p s, snd (step s (RId p)) <> snd (step (fst (step s (RId p))) (RId p)).
Proof. exists "UNIFORM_SAMPLING"%string, []. vm_compute. discriminate. Qed.
Print Assumptions C16_counter_ids_refuted.

(* Encoder: exactly len characters, a function of the hash modulo 37^len *)
Theorem C16_encode_length : forall len x, String.length (encode len x) = len.
Proof. induction len as [|l IH]; intros x; cbn [encode String.length]; [reflexivity|]. now rewrite IH. Qed.
Print Assumptions C16_encode_length.

Theorem C16_encode_mod : forall len x, encode len x = encode len (x mod 37 ^ N.of_nat len)%N.
Proof.
  induction len as [|l IH]; intros x; [reflexivity|].
  cbn [encode]. rewrite Nat2N.inj_succ, N.pow_succ_r'.
  destruct (mod_mul_split x 37 (37 ^ N.of_nat l)) as [Hd Hq]; [easy|now apply N.pow_nonzero|].
  unfold digit. now rewrite Hd, Hq, <- IH.
Qed.
Print Assumptions C16_encode_mod.
