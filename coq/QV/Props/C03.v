(* C03 — pinned statements: privacy loss is never under-reported; each DP aggregation fits
   its budget.  Stated over the reals; the calibration sigma / C = sqrt(2 ln(1.25/delta)) / eps being
   (eps, delta)-DP for eps < 1 is the classical theorem (Dwork-Roth A.1), cited, not proved. *)
From Coq Require Import Rbase List Lra.
From QV Require Import DP.Budget DP.BudgetProofs.
Open Scope R_scope.

(* the recorded noise multiplier is never larger than the sigma / C applied *)
Theorem C03_recorded_le_applied : forall eps del s th groups m,
  params_ok eps del s -> (th = true -> s < 1) ->
  In m (planR eps del s th groups) -> nm (r_eps m) (r_del m) <= nm (m_eps m) (m_del m).
Proof. exact recorded_le_applied. Qed.

(* all the mechanisms of one DP aggregation, by basic composition, fit in (eps, delta) *)
Theorem C03_budget_fits : forall eps del s th groups, params_ok eps del s ->
  let ms := planR eps del s th groups in
  let t := if th then threshold_budgetR eps del s else (0, 0) in
  sum_eps ms + fst t <= eps /\ sum_del ms + snd t <= del.
Proof. exact budget_fits. Qed.

(* composing events drops nothing but no-ops, whatever the number type *)
Theorem C03_compose_keeps : forall (T : Type) (tzero : T -> bool) (a b : event T),
  leaves T tzero (compose T tzero a b) = (leaves T tzero a ++ leaves T tzero b)%list.
Proof. exact compose_keeps. Qed.

Theorem C03_from_iter_keeps : forall (T : Type) (tzero : T -> bool) (l : list (event T)),
  leaves T tzero (from_iter T tzero l) = flat_map (leaves T tzero) l.
Proof. intros T tzero l. apply (fold_compose_keeps T tzero l NoOp). Qed.

(* non-vacuity *)
Example C03_params_example : params_ok 1 (1 / 1000) (1 / 2).
Proof. unfold params_ok. repeat split; lra. Qed.

Example C03_plan_example :
  length (planR 1 (1 / 1000) (1 / 2) true (2 :: 3 :: nil)%nat) = 5%nat.
Proof. reflexivity. Qed.

Check C03_budget_fits.
Print Assumptions C03_recorded_le_applied.
Print Assumptions C03_budget_fits.
Print Assumptions C03_compose_keeps.
Print Assumptions C03_from_iter_keeps.
