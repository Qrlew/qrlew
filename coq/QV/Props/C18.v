(* C18 - totality of the modelled core: pinned statements.  In the models None stands for a Rust
   panic.  The whole-pipeline half of the property (parse, relation, render, rewritings never panic
   or loop) has no model: it is decided by the oracle, which runs every stage under catch_unwind in
   watched child processes. *)
From QV Require Import Intervals.Model Intervals.Proofs Fn.IntExpr Fn.IntExprProofs.
Open Scope Z_scope.

(* every history of interval operations with well-ordered bounds runs to the end (no assert fires)
   and keeps the representation invariant, for any capacity above 1 *)
Theorem C18_interval_histories_never_abort : forall cap, (1 < cap)%nat ->
  forall ops s, WF cap s -> Forall (op_ok cap) ops -> exists s', run cap s ops = Some s' /\ WF cap s'.
Proof. exact run_WF. Qed.
Print Assumptions C18_interval_histories_never_abort.

(* the assert of union_interval fires exactly on reversed bounds *)
Theorem C18_union_interval_total : forall cap, (1 < cap)%nat ->
  forall l mn mx, mn <= mx -> exists r, union_interval cap l mn mx = Some r.
Proof. exact union_interval_total. Qed.
Print Assumptions C18_union_interval_total.

Theorem C18_union_interval_aborts : forall cap, (1 < cap)%nat ->
  forall l mn mx, mx < mn -> union_interval cap l mn mx = None.
Proof.
  intros cap _ l mn mx H. unfold union_interval. destruct (Z.leb_spec mn mx); [lia|reflexivity].
Qed.
Print Assumptions C18_union_interval_aborts.

(* the saturating integer arithmetic of the function images never leaves i64 *)
Theorem C18_saturating_arithmetic : forall cap, (2 < cap)%nat ->
  forall op x y, in_i64 x -> in_i64 y -> in_i64 (bin_value op x y).
Proof. intros cap _. exact bin_value_in_i64. Qed.
Print Assumptions C18_saturating_arithmetic.

(* whenever an integer expression evaluates on a row, its range propagation terminates with a range *)
Theorem C18_range_propagation_total : forall cap, (2 < cap)%nat ->
  forall e env tenv y,
  Forall2 (fun v S => WF cap S /\ mem v S = true /\ in_i64 v) env tenv ->
  consts_ok e -> eval env e = Some y ->
  exists T, image cap tenv e = Some T /\ WF cap T /\ mem y T = true /\ in_i64 y.
Proof. exact expr_sound. Qed.
Print Assumptions C18_range_propagation_total.
