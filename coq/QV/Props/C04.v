(* C04 - grouping keys are released only above the tau threshold; pinned statements *)
From Coq Require Import Rbase Lqa Lra.
From QV Require Import DP.Tau DP.TauProofs DP.TauSens.

(* a released key is a key of the data whose count of distinct units, taken after the cap that
   leaves every unit in at most cu groups, plus the noise, exceeds tau *)
Theorem C04_released_spec : forall cu rank tau sigma noise l k,
  In k (released cu rank tau sigma noise l) ->
  In k (map snd l) /\
  (tau < inject_Z (count k (cap cu rank (dedup l))) + sigma * noise k)%Q /\
  forall u, (length (groups_of u (cap cu rank (dedup l))) <= cu)%nat.
Proof.
  intros cu rank tau sigma noise l k H. unfold released in H. apply release_spec in H as [Hk Hlt].
  split; [exact (incl_map snd (capped_incl cu rank l) k Hk)|]. split; [exact Hlt|apply cap_bound].
Qed.
Print Assumptions C04_released_spec.

Theorem C04_release_iff : forall tau sigma noise l k,
  In k (release tau sigma noise l) <->
  In k (map snd l) /\ (tau < inject_Z (count k l) + sigma * noise k)%Q.
Proof. exact release_spec. Qed.
Print Assumptions C04_release_iff.

Theorem C04_cap_bound : forall cu rank l u, (length (groups_of u (cap cu rank l)) <= cu)%nat.
Proof. exact cap_bound. Qed.
Print Assumptions C04_cap_bound.

(* a key held by a single privacy unit is never released deterministically *)
Theorem C04_singleton_not_released : forall cu rank tau sigma noise l k,
  (1 <= tau)%Q -> (0 <= sigma)%Q -> (noise k <= 0)%Q -> (count k l <= 1)%Z ->
  ~ In k (released cu rank tau sigma noise l).
Proof.
  intros cu rank tau sigma noise l k Htau Hs Hz Hc H. unfold released in H. apply release_spec in H as [_ H].
  (* the cap and the de-duplication only lower the count *)
  pose proof (count_mono k _ _ (capped_incl cu rank l)) as Hm.
  assert (Hq : (inject_Z (count k (cap cu rank (dedup l))) <= 1)%Q)
    by (change 1%Q with (inject_Z 1); rewrite <- Zle_Qle; lia).
  Lqa.nra.
Qed.
Print Assumptions C04_singleton_not_released.

Theorem C04_tau_ge_one : forall scale quantile : R, (0 <= scale)%R -> (1 <= tau_of scale quantile)%R.
Proof. exact tau_ge_one. Qed.
Print Assumptions C04_tau_ge_one.

(* the threshold formula as it stood before the repair *)
Theorem C04_tau_unclamped_refuted : exists scale quantile : R, (0 <= scale)%R /\ (1 + scale * quantile < 1)%R.
Proof. exists 1%R, (-1)%R. Lra.lra. Qed.
Print Assumptions C04_tau_unclamped_refuted.

(* the count the noise is added to has L2 sensitivity sqrt(cu): the rows of a new unit move every
   per-key count by 0 or 1, and only for keys among the at most cu rows the cap leaves to that unit *)
Theorem C04_count_sensitivity : forall cu rank l new u k,
  fresh u l -> of_unit u new ->
  let before := count k (cap cu rank l) in
  let after := count k (cap cu rank (l ++ new)) in
  (0 <= after - before <= 1)%Z /\
  ((after - before = 1)%Z -> In k (map snd (cap cu rank new))).
Proof.
  intros cu rank l new u k Hl Hn. cbn zeta. rewrite (cap_app cu rank l new u Hl Hn).
  rewrite (count_app k _ _ u (cap_fresh cu rank l u Hl) (cap_of_unit cu rank new u Hn)).
  pose proof (count_one_unit k _ u (cap_of_unit cu rank new u Hn)).
  split; [lia|]. intros E. apply count_key. lia.
Qed.
Print Assumptions C04_count_sensitivity.

Theorem C04_moved_keys_bound : forall cu rank new u, of_unit u new -> (length (cap cu rank new) <= cu)%nat.
Proof.
  intros cu rank new u Hn. rewrite <- (groups_of_unit u (cap cu rank new)) by apply cap_of_unit, Hn.
  apply cap_bound.
Qed.
Print Assumptions C04_moved_keys_bound.

(* the cap is exact: when the ranks drawn for the rows of a unit are pairwise different, the unit is left in
   exactly min(cu, its number of groups) groups, whatever the ranks are.  The correspondence stream checks, on
   the counting relation of every rewritten query, that the counts the threshold is applied to add up to the
   sum of these numbers over the units *)
Theorem C04_cap_exact : forall cu rank l u, NoDup (map rank (groups_of u l)) ->
  length (groups_of u (cap cu rank l)) = Nat.min cu (length (groups_of u l)).
Proof.
  intros cu rank l u Hnd. rewrite <- !(map_length rank), groups_cap. apply top_length, Hnd.
Qed.
Print Assumptions C04_cap_exact.

(* non-vacuity: a unit in three groups capped at two keeps the two rows of highest rank *)
Example C04_example_cap :
  let l := [(1, 10); (1, 20); (1, 30); (2, 10)]%Z in
  cap 2 (fun r => snd r) l = [(1, 20); (1, 30); (2, 10)]%Z.
Proof. vm_compute. reflexivity. Qed.

