(* C01 - the true sensitivity never exceeds the clipping bound; pinned statements *)
From Coq Require Import Lra.
From QV Require Import DP.Clip DP.ClipProofs.
Open Scope R_scope.

(* whatever a unit contributes (any values, any number of rows and groups), its clipped
   contribution has Euclidean norm at most C *)
Theorem C01_clip_norm : forall C v, 0 < C -> norm (clip C v) <= C.
Proof. exact clip_norm. Qed.
Print Assumptions C01_clip_norm.

(* two databases that differ in the rows of one unit: the vector of released pre-noise sums over
   the groups changes by at most C in Euclidean norm *)
Theorem C01_sensitivity : forall C D1 D2 u,
  0 < C -> norm (change C (D1 ++ D2) (D1 ++ u :: D2) (length u)) <= C.
Proof. exact sensitivity. Qed.
Print Assumptions C01_sensitivity.

Theorem C01_change_is_clip : forall C D1 D2 u,
  change C (D1 ++ D2) (D1 ++ u :: D2) (length u) = clip C u.
Proof. exact change_is_clip. Qed.
Print Assumptions C01_change_is_clip.

(* the characterisation the correspondence check evaluates on rationals: a unit within the bound is left
   untouched ... *)
Theorem C01_clip_inactive : forall C v, 0 < C -> sumsq v <= C * C -> clip C v = v.
Proof.
  intros C v HC Hle. apply norm_le in Hle; [|lra]. unfold clip.
  destruct (factor_cases C v HC) as [[_ ->]|[H _]]; [|lra].
  rewrite <- (map_id v) at 2. apply map_ext, Rmult_1_l.
Qed.
Print Assumptions C01_clip_inactive.

(* ... above the bound the vector is rescaled onto the sphere of radius C *)
Theorem C01_clip_active : forall C v, 0 < C -> C * C < sumsq v ->
  clip C v = map (Rmult (C / norm v)) v /\ sumsq (clip C v) = C * C.
Proof.
  intros C v HC Hgt.
  assert (Hn : C < norm v) by (apply Rnot_le_lt; intros H; apply norm_le in H; lra).
  split.
  - unfold clip. destruct (factor_cases C v HC) as [[H _]|[_ ->]]; [lra|reflexivity].
  - rewrite <- norm_sq, norm_clip_eq, Rmin_right by lra. reflexivity.
Qed.
Print Assumptions C01_clip_active.

(* the clipping is needed: whatever C, some contribution has a norm above it *)
Theorem C01_unclipped_refuted : forall C, 0 < C -> exists v, C * C < sumsq v.
Proof. intros C HC. exists [C + 1]. cbn [sumsq]. nra. Qed.
Print Assumptions C01_unclipped_refuted.
