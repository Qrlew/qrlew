(* C06 — pinned statements: range propagation is sound (integer expression language:
   saturating + - x, least, greatest, the four comparisons, composed over expression trees),
   for every interval-set type within the 128-interval capacity, including types whose
   propagation crosses the capacity. *)
From QV Require Import Intervals.Model Intervals.Proofs Fn.IntExpr Fn.IntExprProofs.
Open Scope Z_scope.

Lemma cap_ok : (1 < CAP)%nat. Proof. unfold CAP. lia. Qed.

(* the combinator: on a box where the function is monotone in each coordinate, every value lies
   between the smallest and the largest corner value *)
Theorem C06_monotone_box : forall (f : Z -> Z -> Z) a1 a2 b1 b2 x y,
  (forall y0, b1 <= y0 <= b2 -> mono_on (fun x0 => f x0 y0) a1 a2) ->
  (forall x0, a1 <= x0 <= a2 -> mono_on (f x0) b1 b2) ->
  a1 <= x <= a2 -> b1 <= y <= b2 ->
  Z.min (Z.min (f a1 b1) (f a1 b2)) (Z.min (f a2 b1) (f a2 b2)) <= f x y <=
  Z.max (Z.max (f a1 b1) (f a1 b2)) (Z.max (f a2 b1) (f a2 b2)).
Proof. intros f a1 a2 b1 b2 x y Hx Hy. apply box_bounded; auto; split; lia. Qed.

(* one function application *)
Theorem C06_function_sound : forall op SA SB x y, WF CAP SA -> WF CAP SB ->
  mem x SA = true -> mem y SB = true -> in_i64 x -> in_i64 y ->
  exists T, bin_image CAP op SA SB = Some T /\ WF CAP T /\ mem (bin_value op x y) T = true.
Proof.
  intros op SA SB x y HA HB Hx Hy Ix Iy.
  destruct (bin_image_spec CAP cap_ok2 op SA SB HA HB) as (T & ET & WT & MT). eauto.
Qed.

(* composed expressions: if the expression evaluates to y on a row of the input type, range
   propagation succeeds and the range contains y *)
Theorem C06_expression_sound : forall e env tenv y,
  Forall2 (fun v S => WF CAP S /\ mem v S = true /\ in_i64 v) env tenv -> consts_ok e ->
  eval env e = Some y ->
  exists T, image CAP tenv e = Some T /\ WF CAP T /\ mem y T = true /\ in_i64 y.
Proof. exact (expr_sound CAP cap_ok2). Qed.

(* non-vacuity: (a * b) + (a > b) on a in [-3,4], b in {-2} u [5,6] *)
Example C06_example :
  let tenv := [[(-3, 4)]; [(-2, -2); (5, 6)]] in
  let e := EBin Plus (EBin Mul (EVar 0) (EVar 1)) (EBin Gt (EVar 0) (EVar 1)) in
  image CAP tenv e = Some [(-18, 25)] /\ eval [4; 6] e = Some 24 /\ eval [-3; -2] e = Some 6.
Proof. vm_compute. repeat split. Qed.

Check C06_expression_sound.
Print Assumptions C06_monotone_box.
Print Assumptions C06_function_sound.
Print Assumptions C06_expression_sound.
