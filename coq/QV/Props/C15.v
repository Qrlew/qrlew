(* C15 — pinned statements: lookup by exact path or unique agreeing suffix. *)
From QV Require Import Hierarchy.Model Hierarchy.Proofs.

Theorem C15_get_spec : forall (T : Type) (h : list (path * T)) p kv, NoDup (keys h) ->
  (get_key_value h p = Some kv <->
   In kv h /\ (fst kv = p \/
               (~ In p (keys h) /\ agree p (fst kv) /\
                forall kv', In kv' h -> agree p (fst kv') -> kv' = kv))).
Proof. intros T. exact (@get_spec T). Qed.

Theorem C15_exact_wins : forall (T : Type) (h : list (path * T)) p v,
  NoDup (keys h) -> In (p, v) h -> get_key_value h p = Some (p, v).
Proof. intros T h p v Hn Hi. apply get_spec; auto. Qed.

Theorem C15_ambiguous_never_bound : forall (T : Type) (h : list (path * T)) p kv1 kv2,
  ~ In p (keys h) -> In kv1 h -> In kv2 h -> kv1 <> kv2 ->
  agree p (fst kv1) -> agree p (fst kv2) -> get_key_value h p = None.
Proof. intros T. exact (@ambiguous_never_bound T). Qed.

Theorem C15_no_candidate_none : forall (T : Type) (h : list (path * T)) p,
  ~ In p (keys h) -> (forall kv, In kv h -> ~ agree p (fst kv)) -> get_key_value h p = None.
Proof.
  intros T h p Hnot Hno. destruct (get_key_value h p) as [kv|] eqn:E; [|reflexivity].
  apply get_sound in E as [Hi [<-|(_ & Ha & _)]].
  - destruct Hnot. now apply in_map.
  - destruct (Hno kv Hi Ha).
Qed.

Theorem C15_order_irrelevant : forall (T : Type) (h h' : list (path * T)) p,
  NoDup (keys h) -> Permutation h h' -> get_key_value h p = get_key_value h' p.
Proof. intros T. exact (@get_perm T). Qed.

(* the executable suffix test is the relation of the statement *)
Theorem C15_suffix_test_is_agree : forall p k, is_suffix_of p k = true <-> agree p k.
Proof. exact is_suffix_of_agree. Qed.

(* non-vacuity: two columns "a" (10) in joined relations t1, t2 are ambiguous; key [2;11] is found by its suffix [11],
   by itself, and by the longer path [7;2;11] *)
Example C15_example :
  let h := [([1;10], 100); ([2;10], 200); ([2;11], 300)]%N in
  get_key_value h [10]%N = None /\ get_key_value h [11]%N = Some ([2;11], 300)%N /\
  get_key_value h [1;10]%N = Some ([1;10], 100)%N /\ get_key_value h [7;2;11]%N = Some ([2;11], 300)%N.
Proof. vm_compute. repeat split. Qed.

Check C15_get_spec.
Print Assumptions C15_get_spec.
Print Assumptions C15_exact_wins.
Print Assumptions C15_ambiguous_never_bound.
Print Assumptions C15_no_candidate_none.
Print Assumptions C15_order_irrelevant.
Print Assumptions C15_suffix_test_is_agree.
