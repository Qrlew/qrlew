(* C05 - a tracked row depends only on its own unit's data; pinned statements *)
From QV Require Import Rel.Track Rel.TrackProofs ListFacts.

(* for every tracked expression whose skeleton is inside the fragment (no LIMIT under tracking,
   tracked joins equate the units, outer joins do not preserve a public side, reduces group by the
   unit), every database and every unit: the rows attributed to u are exactly the rows of the same
   expression on the database restricted to the protected rows of u *)
Theorem C05_tracking_local : forall e, skel_ok (skel_of e) = true ->
  forall db u, restrict u (eval db e) = eval (restrict_db u db) e.
Proof. intros e H db u. exact (tracked_keep e H (fun a => unit_eqb a (Some u)) db _ (fun n => eq_refl)). Qed.
Print Assumptions C05_tracking_local.

(* ... and every output row carries a non-null unit *)
Theorem C05_tracking_units : forall e, skel_ok (skel_of e) = true ->
  forall db, (forall n, all_units (db n)) -> all_units (eval db e).
Proof.
  intros e H db Hdb r Hr E.
  (* r is among the rows without unit, which come from the source rows without unit: there are none *)
  set (c := fun a : option Z => match a with None => true | Some _ => false end).
  assert (Hk : In r (keep c (eval db e))) by (apply filter_In; rewrite E; auto).
  rewrite (tracked_keep e H c db (fun _ => [])), (eval_nil e H) in Hk; [exact Hk|].
  intros n. apply (filter_const _ false). intros x Hx. generalize (Hdb n x Hx). destruct (fst x); [reflexivity|congruence].
Qed.
Print Assumptions C05_tracking_units.

(* outside the fragment the statement fails: the shapes of the known findings and of the repaired defects *)
Definition db2 : nat -> list (option Z * list Z) := fun _ => [(Some 1%Z, [10%Z]); (Some 2%Z, [20%Z])].

Theorem C05_limit_refuted : exists e db u,
  skel_of e = SMap true SSrc /\ restrict u (eval db e) <> eval (restrict_db u db) e.
Proof. exists (TMap (fun p => p) (Some 1%nat) (TSrc 0)), db2, 2%Z. split; [reflexivity|]. vm_compute. discriminate. Qed.
Print Assumptions C05_limit_refuted.

Theorem C05_outer_public_refuted : exists e db,
  skel_of e = SJoinPub true SSrc /\ (forall n, all_units (db n)) /\ ~ all_units (eval db e).
Proof.
  exists (TJoinPub true [[7%Z]] (fun _ _ => None) (fun q => q) (TSrc 0)), db2.
  split; [reflexivity|]. split.
  - intros n r [<-|[<-|[]]]; discriminate.
  - intros H. apply (H (None, [7%Z])); [vm_compute; left; reflexivity|reflexivity].
Qed.
Print Assumptions C05_outer_public_refuted.

Theorem C05_join_without_unit_refuted : exists e db u,
  skel_of e = SJoin false SSrc SSrc /\ restrict u (eval db e) <> eval (restrict_db u db) e.
Proof.
  exists (TJoin false (fun a b => Some (a ++ b)) (TSrc 0) (TSrc 0)), db2, 1%Z.
  split; [reflexivity|]. vm_compute. discriminate.
Qed.
Print Assumptions C05_join_without_unit_refuted.

Theorem C05_reduce_without_unit_refuted : exists e db u,
  skel_of e = SReduce false SSrc /\ restrict u (eval db e) <> eval (restrict_db u db) e.
Proof.
  exists (TReduce false (fun _ => 0%Z) (fun l => [Z.of_nat (length l)]) (TSrc 0)), db2, 1%Z.
  split; [reflexivity|]. vm_compute. discriminate.
Qed.
Print Assumptions C05_reduce_without_unit_refuted.
