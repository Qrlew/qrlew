(* C11 — pinned statements (interval level), each with a short proof from the lemmas
   of QV/Intervals, then Check and Print Assumptions. *)
From QV Require Import Intervals.Model Intervals.Proofs Intervals.Extra Intervals.Full.
Open Scope Z_scope.

Lemma cap_ok : (1 < CAP)%nat. Proof. unfold CAP. lia. Qed.

(* Interval sets stay sorted, disjoint and within capacity after ANY history of
   unions and intersections (no bound on the length), and no step panics. *)
Theorem C11_history_wf : forall ops s, WF CAP s -> Forall (op_ok CAP) ops ->
  exists s', run CAP s ops = Some s' /\ WF CAP s'.
Proof. intros ops s. exact (run_WF CAP cap_ok ops s). Qed.

(* ... and never lose a point: union keeps every point of both operands,
   intersection every common point, whether or not the capacity was crossed. *)
Theorem C11_union_superset : forall a b, WF CAP a -> WF CAP b ->
  exists r, union CAP a b = Some r /\ WF CAP r /\
    (forall v, mem v a || mem v b = true -> mem v r = true).
Proof. exact (union_sound CAP cap_ok). Qed.

Theorem C11_intersection_superset : forall a b, WF CAP a -> WF CAP b ->
  exists r, intersection CAP a b = Some r /\ WF CAP r /\
    (forall v, mem v a && mem v b = true -> mem v r = true).
Proof. exact (intersection_sound CAP cap_ok). Qed.

Theorem C11_simplify_superset : forall l v, wf l -> mem v l = true -> mem v (simplify CAP l) = true.
Proof. intros l v. exact (simplify_superset CAP l v). Qed.

Theorem C11_step_sound : forall s o s' v,
  WF CAP s -> op_ok CAP o -> step CAP s o = Some s' ->
  match o with
  | UnionI mn mx => mem v s || in_itv v (mn, mx) = true -> mem v s' = true
  | UnionS t => mem v s || mem v t = true -> mem v s' = true
  | InterI mn mx => mem v s && in_itv v (mn, mx) = true -> mem v s' = true
  | InterS t => mem v s && mem v t = true -> mem v s' = true
  end.
Proof.
  intros s o s' v Hs Ho E. destruct o as [mn mx|mn mx|t|t]; cbn [step op_ok] in *.
  - exact (union_interval_sound CAP cap_ok s mn mx s' v (proj1 Hs) E).
  - exact (intersection_interval_sound CAP s mn mx s' v (proj1 Hs) E).
  - intros H. apply (union_Some CAP cap_ok s t s' Hs Ho E), orb_true_iff, H.
  - intros [H1 H2]%andb_true_iff. now apply (intersection_Some CAP cap_ok s t s' Hs Ho E).
Qed.

(* membership test is exact *)
Theorem C11_contains_iff : forall a v, WF CAP a -> contains CAP a v = Some (mem v a).
Proof. exact (contains_iff CAP cap_ok). Qed.

(* subset test: sound for all well-formed operands, whether or not the fold that computes the
   intersection crossed the capacity and replaced the accumulator by its hull (such a hull replaces
   CAP intervals or more; within one interval of a there is room for at most as many as b has
   intervals, so the hull is not an interval of a) *)
Theorem C11_is_subset_of_sound : forall a b,
  WF CAP a -> WF CAP b -> is_subset_of CAP a b = Some true ->
  forall v, mem v a = true -> mem v b = true.
Proof. exact (is_subset_of_sound CAP cap_ok). Qed.

(* the number of pieces of an intersection is linear in the number of intervals *)
Theorem C11_pieces_linear : forall src self, wf self -> wf src ->
  (length (pieces self src) <= length self + length src)%nat.
Proof.
  induction src as [|[mn mx] t IH]; intros self Hs Hw; cbn [pieces length]; [lia|].
  destruct Hw as (Hle & Hlt & Hw). rewrite app_length, (pieces_drop_le mx self t (wf_lo_gt_all mx t Hw Hlt)).
  pose proof (IH (drop_le mx self) (drop_le_wf mx self Hs) Hw).
  pose proof (inter_drop_count self mn mx Hs Hle). lia.
Qed.

(* non-vacuity: a concrete history that crosses the capacity (4 here) and is merged into its hull *)
Example C11_history_example :
  run 4 [] [UnionI 1 2; UnionI 5 6; UnionI 9 10; UnionI 20 30; InterI 0 25; UnionS [(3, 3)]]
  = Some [(1, 25)].
Proof. vm_compute. reflexivity. Qed.

Example C11_subset_example :
  WF CAP [(1, 2); (5, 8)] /\ WF CAP [(0, 3); (4, 9)] /\
  (length (xpieces [(1, 2); (5, 8)]%Z [(0, 3); (4, 9)]%Z) < CAP)%nat /\
  is_subset_of CAP [(1, 2); (5, 8)] [(0, 3); (4, 9)] = Some true.
Proof. vm_compute. repeat split; try lia; intros H; discriminate H. Qed.

Check C11_history_wf : forall ops s, WF CAP s -> Forall (op_ok CAP) ops ->
  exists s', run CAP s ops = Some s' /\ WF CAP s'.
Check C11_contains_iff : forall a v, WF CAP a -> contains CAP a v = Some (mem v a).

Print Assumptions C11_history_wf.
Print Assumptions C11_union_superset.
Print Assumptions C11_intersection_superset.
Print Assumptions C11_simplify_superset.
Print Assumptions C11_step_sound.
Print Assumptions C11_contains_iff.
Print Assumptions C11_is_subset_of_sound.
Print Assumptions C11_pieces_linear.
