(* Facts about lists that the standard library of Coq 8.16 lacks and that several layers use. *)
From Coq Require Import List Bool.
Import ListNotations.

Lemma filter_filter {A} (p q : A -> bool) l :
  filter q (filter p l) = filter (fun x => p x && q x) l.
Proof.
  induction l as [|x t IH]; cbn [filter]; [reflexivity|].
  destruct (p x); cbn [filter andb]; rewrite IH; reflexivity.
Qed.

Lemma filter_filter_comm {A} (p q : A -> bool) l : filter p (filter q l) = filter q (filter p l).
Proof. rewrite !filter_filter. apply filter_ext. intros x. apply andb_comm. Qed.

Lemma filter_const {A} (p : A -> bool) (b : bool) l : (forall x, In x l -> p x = b) -> filter p l = if b then l else [].
Proof.
  induction l as [|x t IH]; intros H; cbn [filter]; [destruct b; reflexivity|].
  rewrite (H x (or_introl eq_refl)), IH by (intros y Hy; apply H; right; exact Hy). destruct b; reflexivity.
Qed.

Lemma filter_map_comm {A B} (f : A -> B) (p : B -> bool) l : filter p (map f l) = map f (filter (fun x => p (f x)) l).
Proof.
  induction l as [|x t IH]; cbn [filter map]; [reflexivity|].
  destruct (p (f x)); cbn [map]; rewrite IH; reflexivity.
Qed.

Lemma filter_length_le {A} (p q : A -> bool) l :
  (forall x, In x l -> p x = true -> q x = true) -> length (filter p l) <= length (filter q l).
Proof.
  induction l as [|x t IH]; intros H; cbn [filter]; [reflexivity|].
  specialize (IH (fun y Hy => H y (or_intror Hy))). specialize (H x (or_introl eq_refl)).
  destruct (p x); [rewrite H by reflexivity; apply le_n_S, IH|].
  destruct (q x); [apply le_S, IH|exact IH].
Qed.

Lemma filter_partition_length {A} (p : A -> bool) l :
  length (filter p l) + length (filter (fun x => negb (p x)) l) = length l.
Proof.
  induction l as [|x t IH]; cbn [filter]; [reflexivity|].
  destruct (p x); cbn [negb length]; [|rewrite <- plus_n_Sm]; cbn [plus]; f_equal; exact IH.
Qed.

Lemma NoDup_map_inj {A B} (g : A -> B) l :
  (forall x y, In x l -> In y l -> g x = g y -> x = y) -> NoDup l -> NoDup (map g l).
Proof.
  intros Hg Hn. induction Hn as [|a l Ha _ IH]; cbn; constructor.
  - intros Hin. apply in_map_iff in Hin as (b & Hb & Hbl). apply Ha.
    rewrite <- (Hg b a); [exact Hbl|right; exact Hbl|left; reflexivity|exact Hb].
  - apply IH. intros x y Hx Hy. apply Hg; right; assumption.
Qed.

(* [Forall2] through a [map] on the left.  The entries are compared on the members of the list only: that is
   the form in which Rules.Search.tree_ind' hands over the induction hypothesis on the children, [f] being the
   function under study (select, eliminate) *)
Lemma Forall2_map_iff {A A' B} (f : A -> A') (Q : A' -> B -> Prop) (P : A -> B -> Prop) l :
  Forall (fun a => forall b, Q (f a) b <-> P a b) l -> forall l', Forall2 Q (map f l) l' <-> Forall2 P l l'.
Proof.
  induction 1 as [|a l Ha _ IH]; intros l'; cbn; split; intros H; inversion H; constructor;
    solve [now apply Ha | now apply IH].
Qed.

(* Equality of lists decided entry by entry.  The model's path_eqb, labels_eqb, rules_eqb and ivs_eqb are
   this function at their entry test, by computation: the test stands outside the [fix] here (in the list_eqb
   of Corr/Lib.v it is an argument of the [fix], and the kernel would not identify the two). *)
Section ListEqb.
Context {A : Type} (e : A -> A -> bool).

Fixpoint list_eqb_by (x y : list A) : bool :=
  match x, y with
  | [], [] => true
  | a :: x', b :: y' => e a b && list_eqb_by x' y'
  | _, _ => false
  end.

Hypothesis e_eq : forall a b, e a b = true <-> a = b.

Lemma list_eqb_by_eq x : forall y, list_eqb_by x y = true <-> x = y.
Proof.
  induction x as [|a x IH]; intros [|b y]; cbn [list_eqb_by]; try (split; [discriminate|congruence]); [tauto|].
  rewrite andb_true_iff, e_eq, IH. split; [intros [-> ->]; reflexivity|intros [= -> ->]; auto].
Qed.
End ListEqb.

(* Keeping the last copy of every entry.  The model's dedup and zdedup (DP/Tau.v) and zdedup (Rel/Rows.v)
   are this function at their entry test, by computation. *)
Section Dedup.
Context {A : Type} (e : A -> A -> bool).

Fixpoint dedup_by (l : list A) : list A :=
  match l with
  | [] => []
  | x :: t => if existsb (e x) t then dedup_by t else x :: dedup_by t
  end.

Hypothesis e_eq : forall a b, e a b = true <-> a = b.

Lemma existsb_eqb_In x l : existsb (e x) l = true <-> In x l.
Proof.
  rewrite existsb_exists. split; [intros (y & Hy & ->%e_eq); exact Hy|].
  intros H. exists x. split; [exact H|now apply e_eq].
Qed.

Lemma dedup_by_In x l : In x (dedup_by l) <-> In x l.
Proof.
  induction l as [|y t IH]; cbn [dedup_by]; [reflexivity|].
  destruct (existsb (e y) t) eqn:He; cbn [In]; rewrite IH; [|reflexivity].
  apply existsb_eqb_In in He. split; [now right|intros [<-|H]; assumption].
Qed.

Lemma dedup_by_NoDup l : NoDup (dedup_by l).
Proof.
  induction l as [|y t IH]; cbn [dedup_by]; [constructor|].
  destruct (existsb (e y) t) eqn:He; [exact IH|].
  constructor; [|exact IH]. rewrite dedup_by_In, <- existsb_eqb_In, He. discriminate.
Qed.
End Dedup.
