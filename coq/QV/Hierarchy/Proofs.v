From QV Require Import Hierarchy.Model ListFacts.

Lemma path_eqb_eq p : forall q, path_eqb p q = true <-> p = q.
Proof. exact (list_eqb_by_eq N.eqb N.eqb_eq p). Qed.

Lemma zip_all_spec p : forall q, zip_all p q = true <->
  (forall i, (i < Nat.min (length p) (length q))%nat -> nth_error p i = nth_error q i).
Proof.
  induction p as [|x p IH]; intros [|y q]; cbn [zip_all length Nat.min]; split; auto; try lia.
  - intros H i Hi. apply andb_true_iff in H as [H1 H2]. apply N.eqb_eq in H1. subst y.
    destruct i as [|i]; [reflexivity|]. cbn. apply (proj1 (IH q) H2). lia.
  - intros H. apply andb_true_iff. split.
    + specialize (H 0%nat ltac:(lia)). cbn in H. injection H as ->. apply N.eqb_refl.
    + apply IH. intros i Hi. apply (H (S i)). lia.
Qed.

(* "agrees on every trailing component they both have" *)
Definition agree (p k : path) : Prop :=
  forall i, (i < Nat.min (length p) (length k))%nat -> nth_error (rev p) i = nth_error (rev k) i.

Lemma is_suffix_of_agree p k : is_suffix_of p k = true <-> agree p k.
Proof. unfold is_suffix_of, agree. rewrite zip_all_spec, !rev_length. reflexivity. Qed.

Section H.
Context {T : Type}.
Notation hier := (list (path * T)).

Definition sfx (p : path) (kv : path * T) : bool := is_suffix_of p (fst kv).

(* the fold only sees the candidates, and only whether there are none, one or more *)
Lemma fold_found p (h : hier) : forall f,
  fold_left (found_step p) h f =
  match filter (sfx p) h, f with
  | [], _ => f
  | [kv], Zero => One kv
  | _, _ => More
  end.
Proof.
  induction h as [|kv h IH]; intros f; cbn [fold_left filter]; [reflexivity|].
  rewrite IH. unfold found_step, sfx. destruct (is_suffix_of p (fst kv)); [|reflexivity].
  destruct f; destruct (filter _ h) as [|c1 [|c2 l]]; reflexivity.
Qed.

Definition keys (h : hier) := map fst h.

Lemma sfx_In p (h : hier) kv : In kv (filter (sfx p) h) <-> In kv h /\ agree p (fst kv).
Proof. rewrite filter_In. unfold sfx. now rewrite is_suffix_of_agree. Qed.

Lemma find_exact (h : hier) p :
  match find (fun kv => path_eqb (fst kv) p) h with
  | Some kv => In kv h /\ fst kv = p
  | None => ~ In p (keys h)
  end.
Proof.
  induction h as [|[k v] h IH]; cbn; [tauto|].
  destruct (path_eqb k p) eqn:E.
  - apply path_eqb_eq in E. auto.
  - destruct (find _ h); [tauto|]. intros [->|H]; [|tauto].
    now rewrite (proj2 (path_eqb_eq p p)) in E.
Qed.

Lemma NoDup_keys_unique (h : hier) kv kv' :
  NoDup (keys h) -> In kv h -> In kv' h -> fst kv = fst kv' -> kv = kv'.
Proof.
  induction h as [|a h IH]; [easy|]. cbn. intros Hn H1 H2 E. inversion Hn as [|? ? Hni Hn'].
  destruct H1 as [<-|H1], H2 as [<-|H2]; auto; destruct Hni; [rewrite E|rewrite <- E]; now apply in_map.
Qed.

(* holds of any association list: several bindings of one key are not excluded *)
Lemma get_sound (h : hier) p kv : get_key_value h p = Some kv ->
  In kv h /\ (fst kv = p \/
              (~ In p (keys h) /\ agree p (fst kv) /\
               forall kv', In kv' h -> agree p (fst kv') -> kv' = kv)).
Proof.
  unfold get_key_value. pose proof (find_exact h p) as F. destruct (find _ h) as [kv0|].
  - intros [= <-]. tauto.
  - rewrite fold_found. destruct (filter (sfx p) h) as [|a [|b l]] eqn:E; try discriminate.
    intros [= <-]. pose proof (fun kv => sfx_In p h kv) as S. rewrite E in S.
    destruct (proj1 (S a)) as [Hi Ha]; [now left|]. repeat split; auto. right. repeat split; auto.
    intros kv' Hi' Ha'. destruct (proj2 (S kv')) as [|[]]; auto.
Qed.

Theorem get_spec (h : hier) p kv : NoDup (keys h) ->
  (get_key_value h p = Some kv <->
   In kv h /\ (fst kv = p \/
               (~ In p (keys h) /\ agree p (fst kv) /\
                forall kv', In kv' h -> agree p (fst kv') -> kv' = kv))).
Proof.
  intros Hn. split; [apply get_sound|]. intros [Hi Hb].
  unfold get_key_value. pose proof (find_exact h p) as F.
  destruct (find _ h) as [kv0|], Hb as [Hk|(Hnot & Ha & Hu)].
  - f_equal. apply (NoDup_keys_unique h); intuition congruence.
  - destruct Hnot. destruct F as [F <-]. now apply in_map.
  - destruct F. rewrite <- Hk. now apply in_map.
  - (* the candidates are duplicate-free and have the members of [kv]: they are [kv] *)
    rewrite fold_found, (Permutation_length_1_inv (l := filter (sfx p) h) (a := kv)); [reflexivity|].
    apply NoDup_Permutation; [repeat constructor; easy|apply NoDup_filter, (NoDup_map_inv fst), Hn|].
    intros kv'. rewrite sfx_In. split; [intros [<-|[]]; auto|intros [H1 H2]; left; symmetry; auto].
Qed.

Theorem ambiguous_never_bound (h : hier) p kv1 kv2 :
  ~ In p (keys h) -> In kv1 h -> In kv2 h -> kv1 <> kv2 ->
  agree p (fst kv1) -> agree p (fst kv2) -> get_key_value h p = None.
Proof.
  intros Hnot H1 H2 Hne A1 A2. destruct (get_key_value h p) as [kv|] eqn:E; [|reflexivity].
  apply get_sound in E as [Hi [<-|(_ & _ & Hu)]].
  - destruct Hnot. now apply in_map.
  - destruct Hne. now rewrite (Hu kv1), (Hu kv2).
Qed.

(* the right-hand side of get_spec speaks of membership only *)
Theorem get_perm (h h' : hier) p : NoDup (keys h) -> Permutation h h' ->
  get_key_value h p = get_key_value h' p.
Proof.
  intros Hn Hp.
  assert (Hn' : NoDup (keys h')) by (unfold keys; now rewrite <- Hp).
  assert (X : forall kv, get_key_value h p = Some kv <-> get_key_value h' p = Some kv).
  { intros kv. rewrite !get_spec by assumption. unfold keys. now setoid_rewrite Hp. }
  destruct (get_key_value h p) as [kv|]; [symmetry; now apply X|].
  destruct (get_key_value h' p) as [kv|]; [now apply X|reflexivity].
Qed.

Theorem hfilter_spec (h : hier) p kv :
  In kv (hfilter h p) <-> In kv h /\ is_prefix_of p (fst kv) = true.
Proof. unfold hfilter. apply filter_In. Qed.

End H.
