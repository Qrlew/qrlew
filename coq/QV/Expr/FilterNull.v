(* C10 on nullable columns: rows hold NULLs, a predicate narrows the input type on the rows where it is
   TRUE (three-valued logic: a comparison with a NULL operand is not true).  The ranges are narrowed by the
   same function [narrow] as for non-null rows; [nflags] says which columns may stop being optional. *)
From QV Require Import ListFacts Intervals.Model Intervals.Proofs Fn.IntExpr Fn.IntExprProofs Expr.Filter Expr.FilterProofs.
Open Scope Z_scope.

Fixpoint evalO (env : list (option Z)) (e : expr) : option Z :=
  match e with
  | EVar n => match nth_error env n with Some (Some z) => Some z | _ => None end
  | EConst z => Some z
  | EBin op l r => obind (evalO env l) (fun x => obind (evalO env r) (fun y => Some (bin_value op x y)))
  end.

(* TRUE, as opposed to FALSE or NULL *)
Fixpoint pevalO (env : list (option Z)) (p : pred) : bool :=
  match p with
  | PCmp c l r => match evalO env l, evalO env r with Some x, Some y => cmp_eval c x y | _, _ => false end
  | PAnd p q => pevalO env p && pevalO env q
  | POr p q => pevalO env p || pevalO env q
  | PInList col vs => match nth_error env col with Some (Some x) => existsb (Z.eqb x) vs | _ => false end
  | PConst b => b
  | PBoolCol col => match nth_error env col with Some (Some x) => x =? 1 | _ => false end
  | POther e => match evalO env e with Some x => negb (x =? 0) | None => false end
  end.

(* the columns that cannot be NULL on a row where the predicate is TRUE *)
Fixpoint vars (e : expr) : list nat :=
  match e with EVar n => [n] | EConst _ => [] | EBin _ l r => vars l ++ vars r end.
Definition drop (ns : list nat) (f : list bool) : list bool := fold_right (fun n g => replace_nth n false g) f ns.
Fixpoint zip_or (a b : list bool) : list bool :=
  match a, b with x :: a', y :: b' => (x || y) :: zip_or a' b' | _, _ => [] end.
Fixpoint nflags (f : list bool) (p : pred) : list bool :=
  match p with
  | PCmp _ l r => drop (vars l ++ vars r) f
  | PAnd p q => nflags (nflags f q) p
  | POr p q => zip_or (nflags f p) (nflags f q)
  | PInList col _ | PBoolCol col => drop [col] f
  | PConst _ | POther _ => f
  end.

Lemma cmp_eval_true c x y : cmp_eval c x y = true ->
  match c with CGt | CGtEq => y <= x | CLt | CLtEq => x <= y | CEq => x = y end.
Proof. destruct c; cbn [cmp_eval]; lia. Qed.

Section Sound.
Variable cap : nat.
Hypothesis cap_gt2 : (2 < cap)%nat.
Let cap_gt1 : (1 < cap)%nat. Proof. lia. Qed.

Definition col_okO (v : option Z) (S0 : list (Z * Z)) : Prop :=
  WF cap S0 /\ forall z, v = Some z -> mem z S0 = true /\ in_i64 z.
Definition typedO (env : list (option Z)) (t : tenv) : Prop := Forall2 col_okO env t.

Lemma typedO_wf env t : typedO env t -> wf_tenv cap t.
Proof. induction 1 as [|v S0 e t' [W _] _ IH]; constructor; auto. Qed.

Lemma nth_typedO env t n z : typedO env t -> nth_error env n = Some (Some z) ->
  exists S0, nth_error t n = Some S0 /\ WF cap S0 /\ mem z S0 = true /\ in_i64 z.
Proof.
  intros Ht En. destruct (Forall2_nth_error _ _ _ _ _ Ht En) as (S0 & E & W & H). destruct (H z eq_refl). eauto.
Qed.

Lemma upd_typedO env t e x S0 : typedO env t -> evalO env e = Some x -> WF cap S0 -> mem x S0 = true ->
  typedO env (upd (col_of e) (Some S0) t).
Proof.
  intros Ht He W M. destruct e as [n|z|op l r]; try exact Ht. cbn in He |- *.
  apply Forall2_replace_nth; [exact Ht|]. intros v S1 Hv [_ H1]. rewrite Hv in He.
  destruct v as [z|]; [|discriminate]. injection He as ->.
  split; [exact W|]. intros z [= <-]. split; [exact M|]. apply (H1 x eq_refl).
Qed.

Lemma col_inter v a b c : col_okO v a -> col_okO v b -> intersection cap a b = Some c -> col_okO v c.
Proof.
  intros [Wa Ha] [Wb Hb] E. destruct (intersection_Some cap cap_gt1 a b c Wa Wb E) as [W M].
  split; [exact W|]. intros z Hz. destruct (Ha z Hz), (Hb z Hz). auto.
Qed.

Lemma col_union v a b c : WF cap a -> WF cap b -> union cap a b = Some c -> col_okO v a \/ col_okO v b -> col_okO v c.
Proof.
  intros Wa Wb E H. destruct (union_Some cap cap_gt1 a b c Wa Wb E) as [W M].
  split; [exact W|]. intros z Hz. destruct H as [[_ H]|[_ H]]; destruct (H z Hz); auto.
Qed.

Lemma map2_inter_typedO x y z : map2_opt (intersection cap) x y = Some z ->
  forall env, typedO env x -> typedO env y -> typedO env z.
Proof.
  revert x y z. apply (map2_opt_ind _ (fun x y z => forall env, typedO env x -> typedO env y -> typedO env z)).
  - intros env Hx _. inversion Hx. constructor.
  - intros a b c x y z E IH env Hx Hy. inversion Hx as [|v ? env' ? Ha Hx']; subst. inversion_clear Hy as [|? ? ? ? Hb Hy'].
    constructor; [exact (col_inter v a b c Ha Hb E)|exact (IH env' Hx' Hy')].
Qed.

Lemma map2_union_typedO x y z : map2_opt (union cap) x y = Some z -> wf_tenv cap x -> wf_tenv cap y ->
  forall env, typedO env x \/ typedO env y -> typedO env z.
Proof.
  revert x y z. apply (map2_opt_ind _ (fun x y z => wf_tenv cap x -> wf_tenv cap y ->
    forall env, typedO env x \/ typedO env y -> typedO env z)).
  - intros _ _ env [H|H]; inversion H; constructor.
  - intros a b c x y z E IH Wx Wy env H. inversion_clear Wx as [|? ? Wa Wx']. inversion_clear Wy as [|? ? Wb Wy'].
    destruct H as [H|H]; inversion_clear H as [|v ? env' ? Hv H'].
    + constructor; [exact (col_union v a b c Wa Wb E (or_introl Hv))|exact (IH Wx' Wy' env' (or_introl H'))].
    + constructor; [exact (col_union v a b c Wa Wb E (or_intror Hv))|exact (IH Wx' Wy' env' (or_intror H'))].
Qed.

Lemma expr_soundO env t : typedO env t -> forall e y, consts_ok e -> evalO env e = Some y ->
  exists T, image cap t e = Some T /\ WF cap T /\ mem y T = true /\ in_i64 y.
Proof.
  intros Ht. apply (image_sound cap cap_gt2 (evalO env)); [|reflexivity|reflexivity].
  intros n x. cbn [evalO]. destruct (nth_error env n) as [[z|]|] eqn:En; try discriminate.
  intros [= <-]. exact (nth_typedO env t n z Ht En).
Qed.

Lemma narrow_ge_soundO env t l r x y : typedO env t -> consts_ok l -> consts_ok r ->
  evalO env l = Some x -> evalO env r = Some y -> y <= x -> typedO env (narrow_ge cap t l r).
Proof.
  intros Ht Hl Hr El Er Hxy. rewrite narrow_ge_eq.
  destruct (expr_soundO env t Ht l x Hl El) as (A & -> & WA & MA & IA).
  destruct (expr_soundO env t Ht r y Hr Er) as (B & -> & WB & MB & IB).
  destruct (cut_spec cap cap_gt2 Greatest A B A WA WB WA) as (S1 & -> & W1 & M1).
  destruct (cut_spec cap cap_gt2 Least A B B WA WB WB) as (S2 & -> & W2 & M2).
  specialize (M1 x y MA MB IA IB). specialize (M2 x y MA MB IA IB). cbn [bin_value] in M1, M2.
  (* under y <= x, GREATEST is the left value and LEAST the right one *)
  rewrite Z.max_l in M1 by exact Hxy. rewrite Z.min_r in M2 by exact Hxy.
  apply (upd_typedO env _ r y); auto. apply (upd_typedO env _ l x); auto.
Qed.

Lemma narrow_eq_soundO env t l r x : typedO env t -> consts_ok l -> consts_ok r ->
  evalO env l = Some x -> evalO env r = Some x -> typedO env (narrow_eq cap t l r).
Proof.
  intros Ht Hl Hr El Er. rewrite narrow_eq_eq.
  destruct (expr_soundO env t Ht l x Hl El) as (A & -> & WA & MA & _).
  destruct (expr_soundO env t Ht r x Hr Er) as (B & -> & WB & MB & _).
  destruct (intersection cap A B) as [S0|] eqn:E; [|exact Ht].
  destruct (intersection_Some cap cap_gt1 A B S0 WA WB E) as [W M].
  apply (upd_typedO env _ r x); auto. apply (upd_typedO env _ l x); auto.
Qed.

Theorem narrow_soundO p : forall env t, typedO env t -> pred_ok p -> pevalO env p = true ->
  typedO env (narrow cap t p).
Proof.
  induction p as [c l r|p IHp q IHq|p IHp q IHq|col vs|b|bc|e]; intros env t Ht Hp He; cbn [pevalO pred_ok] in *.
  - destruct Hp as [Hl Hr].
    destruct (evalO env l) as [x|] eqn:El; [|discriminate]. destruct (evalO env r) as [y|] eqn:Er; [|discriminate].
    apply cmp_eval_true in He.
    destruct c; cbn [narrow].
    1, 2: exact (narrow_ge_soundO env t l r x y Ht Hl Hr El Er He).
    1, 2: exact (narrow_ge_soundO env t r l y x Ht Hr Hl Er El He).
    subst y. exact (narrow_eq_soundO env t l r x Ht Hl Hr El Er).
  - destruct Hp as [Hp Hq]. apply andb_true_iff in He as [He1 He2].
    cbn [narrow]. apply or_else_ind; [exact Ht|]. intros z E.
    (* both orders of narrowing keep the row; so does their intersection *)
    exact (map2_inter_typedO _ _ _ E env (IHp _ _ (IHq _ _ Ht Hq He2) Hp He1) (IHq _ _ (IHp _ _ Ht Hp He1) Hq He2)).
  - destruct Hp as [Hp Hq]. pose proof (typedO_wf env t Ht) as Wt.
    cbn [narrow]. apply or_else_ind; [exact Ht|]. intros z E.
    (* only the side that is TRUE on the row keeps it; the other side is well formed all the same *)
    eapply map2_union_typedO; [exact E| | |]; try (apply (narrow_wf cap cap_gt2); exact Wt).
    apply orb_true_iff in He as [He|He]; auto.
  - destruct (nth_error env col) as [[x|]|] eqn:Ex; try discriminate.
    destruct (nth_typedO env t col x Ht Ex) as (S0 & En & WS & MS & IS).
    rewrite narrow_in_list_eq, En.
    destruct (values_spec cap cap_gt2 vs) as (V & -> & WV & MV). cbn [obind].
    destruct (intersection cap V S0) as [S1|] eqn:E; [|exact Ht].
    destruct (intersection_Some cap cap_gt1 V S0 S1 WV WS E) as [W1 M1].
    apply (upd_typedO env t (EVar col) x); auto; [cbn; now rewrite Ex|].
    apply M1; auto. apply MV. apply existsb_exists in He as (w & Hw & Hx). apply Z.eqb_eq in Hx. now subst.
  - destruct b; [exact Ht|discriminate].
  - destruct (nth_error env bc) as [[x|]|] eqn:Ex; try discriminate.
    destruct (narrow_bool_col cap t bc) as [->|[En _]]; [exact Ht|]. exfalso.
    (* the type is the single value false, the row has true there *)
    destruct (nth_typedO env t bc x Ht Ex) as (S0 & En' & _ & MS & _). apply Z.eqb_eq in He. subst x.
    rewrite En in En'. injection En' as <-. apply mem_single in MS. lia.
  - exact Ht.
Qed.

(* rows without NULLs are rows of [Some]s *)
Lemma evalO_Some env e : evalO (map Some env) e = eval env e.
Proof.
  induction e as [n|z|op l IHl r IHr]; cbn; [|reflexivity|now rewrite IHl, IHr].
  rewrite nth_error_map. now destruct (nth_error env n).
Qed.

Lemma pevalO_Some env p : pevalO (map Some env) p = peval env p.
Proof.
  induction p as [c l r|p IHp q IHq|p IHp q IHq|col vs|b|bc|e]; cbn [pevalO peval];
    rewrite ?evalO_Some, ?nth_error_map, ?IHp, ?IHq; try reflexivity; now destruct (nth_error env _).
Qed.

Lemma typedO_Some env t : typedO (map Some env) t <-> typed cap env t.
Proof.
  apply Forall2_map_iff, Forall_forall. intros v _ S0. split.
  - intros [W H]. destruct (H v eq_refl). now split.
  - intros (W & M & I). split; [exact W|]. now intros z [= <-].
Qed.

Theorem narrow_sound p env t : typed cap env t -> pred_ok p -> peval env p = true -> typed cap env (narrow cap t p).
Proof. rewrite <- pevalO_Some, <- !typedO_Some. apply narrow_soundO. Qed.
End Sound.

(* The optional flags: a flag may only be dropped where the row holds a value. *)
Definition flags_ok (env : list (option Z)) (f : list bool) : Prop := Forall2 (fun v b => v = None -> b = true) env f.

Lemma evalO_vars env e : evalO env e <> None -> Forall (fun n => nth_error env n <> Some None) (vars e).
Proof.
  induction e as [n|z|op l IHl r IHr]; cbn [evalO vars]; intros H.
  - constructor; [|constructor]. intros E. now rewrite E in H.
  - constructor.
  - apply Forall_app. destruct (evalO env l); [|easy]. destruct (evalO env r); [|easy].
    split; [apply IHl|apply IHr]; discriminate.
Qed.

(* out of range the flags are left as they are, so "not NULL" is all that dropping a flag asks of a column *)
Lemma drop_ok env f ns : flags_ok env f -> Forall (fun n => nth_error env n <> Some None) ns -> flags_ok env (drop ns f).
Proof.
  intros Hf. induction 1 as [|n ns Hn _ IH]; cbn [drop fold_right]; [exact Hf|].
  apply Forall2_replace_nth; [exact IH|]. intros a b E _ ->. now destruct Hn.
Qed.

Lemma drop_length ns f : length (drop ns f) = length f.
Proof. induction ns as [|n ns IH]; cbn [drop fold_right]; [reflexivity|]. rewrite replace_nth_length. exact IH. Qed.

Lemma zip_or_length a b : length a = length b -> length (zip_or a b) = length a.
Proof. revert b; induction a as [|x a IH]; intros [|y b]; cbn; try discriminate; auto. Qed.

Lemma nflags_length p : forall f, length (nflags f p) = length f.
Proof.
  induction p as [c l r|p IHp q IHq|p IHp q IHq|col vs|b|bc|e]; intros f; cbn [nflags]; rewrite ?drop_length; auto.
  - rewrite IHp. apply IHq.
  - rewrite zip_or_length; [apply IHp|rewrite IHp, IHq; reflexivity].
Qed.

Lemma zip_or_ok_l env a b : flags_ok env a -> length b = length a -> flags_ok env (zip_or a b).
Proof.
  intros Ha. revert b. induction Ha as [|v x env' a' Hv Hrest IH]; intros [|y b] Hl; cbn in *; try discriminate; constructor.
  - intros E. rewrite (Hv E). reflexivity.
  - apply IH. lia.
Qed.
Lemma zip_or_comm a : forall b, zip_or a b = zip_or b a.
Proof. induction a as [|x a IH]; intros [|y b]; cbn; auto. now rewrite orb_comm, IH. Qed.
