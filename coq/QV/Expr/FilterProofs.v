(* C10, the part that does not look at rows: narrowing keeps the number of columns and never produces an
   ill-formed column type.  Rows come in FilterNull.v. *)
From QV Require Import Intervals.Model Intervals.Proofs Fn.IntExpr Fn.IntExprProofs Expr.Filter.
Open Scope Z_scope.

Lemma replace_nth_length {A} n (x : A) l : length (replace_nth n x l) = length l.
Proof. revert n; induction l as [|y t IH]; intros [|n]; cbn; auto. Qed.

Lemma Forall_replace_nth {A} (P : A -> Prop) n x l : Forall P l -> P x -> Forall P (replace_nth n x l).
Proof. intros Hl Hx. revert n. induction Hl; intros [|n]; cbn; auto. Qed.

(* the new entry has to be right for what stands at that place on the left only *)
Lemma Forall2_replace_nth {A B} (R : A -> B -> Prop) n y l l' :
  Forall2 R l l' -> (forall a b, nth_error l n = Some a -> R a b -> R a y) -> Forall2 R l (replace_nth n y l').
Proof.
  intros H. revert n. induction H; intros [|n] Hy; cbn; constructor; auto.
  eapply Hy; [reflexivity|eassumption].
Qed.

Lemma map2_opt_ind {A} (f : A -> A -> option A) (P : list A -> list A -> list A -> Prop) :
  P [] [] [] ->
  (forall a b c x y z, f a b = Some c -> P x y z -> P (a :: x) (b :: y) (c :: z)) ->
  forall x y z, map2_opt f x y = Some z -> P x y z.
Proof.
  intros H0 HS x. induction x as [|a x IH]; intros [|b y] z; cbn; try discriminate.
  - intros [= <-]. exact H0.
  - destruct (f a b) as [c|] eqn:E; [|discriminate]. destruct (map2_opt f x y) as [z'|] eqn:E'; [|discriminate].
    intros [= <-]. auto.
Qed.

Lemma map2_opt_length {A} (f : A -> A -> option A) x y z : map2_opt f x y = Some z -> length z = length x.
Proof. revert x y z. apply (map2_opt_ind f (fun x _ z => length z = length x)); cbn; auto. Qed.

Lemma map2_opt_Forall {A} (f : A -> A -> option A) (P : A -> Prop) :
  (forall a b c, P a -> P b -> f a b = Some c -> P c) ->
  forall x y z, map2_opt f x y = Some z -> Forall P x -> Forall P y -> Forall P z.
Proof.
  intros Hf. apply (map2_opt_ind f (fun x y z => Forall P x -> Forall P y -> Forall P z)); [auto|].
  intros a b c x y z E IH Hx Hy.
  inversion_clear Hx. inversion_clear Hy. eauto.
Qed.

Lemma or_else_ind {A} (P : A -> Prop) x d : P d -> (forall a, x = Some a -> P a) -> P (or_else x d).
Proof. destruct x; cbn; auto. Qed.

(* the column update of [narrow]: column [o], if there is one, becomes [s], if there is one *)
Definition upd (o : option nat) (s : option (list (Z * Z))) (t : tenv) : tenv :=
  match o, s with Some n, Some S0 => replace_nth n S0 t | _, _ => t end.

Lemma upd_length o s t : length (upd o s t) = length t.
Proof. destruct o, s; cbn; auto using replace_nth_length. Qed.

Section Sound.
Variable cap : nat.
Hypothesis cap_gt2 : (2 < cap)%nat.
Let cap_gt1 : (1 < cap)%nat. Proof. lia. Qed.

Definition col_ok (v : Z) (S0 : list (Z * Z)) : Prop := WF cap S0 /\ mem v S0 = true /\ in_i64 v.
Definition typed (env : list Z) (t : tenv) : Prop := Forall2 col_ok env t.
Definition wf_tenv (t : tenv) : Prop := Forall (WF cap) t.

Lemma eval_var env n : eval env (EVar n) = nth_error env n.
Proof. reflexivity. Qed.

Lemma typed_env_hyp env t : typed env t ->
  Forall2 (fun v S0 => WF cap S0 /\ mem v S0 = true /\ in_i64 v) env t.
Proof. auto. Qed.

Fixpoint pred_ok (p : pred) : Prop :=
  match p with
  | PCmp _ l r => consts_ok l /\ consts_ok r
  | PAnd p q | POr p q => pred_ok p /\ pred_ok q
  | PInList _ vs => Forall in_i64 vs
  | PConst _ => True
  | PBoolCol _ => True
  | POther e => consts_ok e
  end.

(* what narrow_ge puts in a column: the image of GREATEST / LEAST of the two sides, cut down to the range [C]
   the column's side had *)
Definition cut (op : binop) (A B C : list (Z * Z)) : option (list (Z * Z)) :=
  obind (bin_image cap op A B) (fun G => intersection cap G C).

Lemma cut_spec op A B C : WF cap A -> WF cap B -> WF cap C ->
  exists S0, cut op A B C = Some S0 /\ WF cap S0 /\
    forall x y, mem x A = true -> mem y B = true -> in_i64 x -> in_i64 y ->
      mem (bin_value op x y) C = true -> mem (bin_value op x y) S0 = true.
Proof.
  intros HA HB HC. unfold cut. destruct (bin_image_spec cap cap_gt2 op A B HA HB) as (G & -> & WG & MG).
  destruct (intersection_sound cap cap_gt1 G C WG HC) as (S0 & E & W & M).
  exists S0. split; [exact E|]. split; [exact W|]. intros x y Hx Hy Ix Iy Hc. apply M. now rewrite MG, Hc.
Qed.

Lemma values_spec vs :
  exists V, from_intervals cap (map (fun v => (v, v)) vs) = Some V /\ WF cap V /\
    forall x, In x vs -> mem x V = true.
Proof.
  destruct (from_intervals_sound cap cap_gt1 (map (fun v => (v, v)) vs)) as (V & E & W & M).
  { apply Forall_forall. intros i Hi. apply in_map_iff in Hi as (v & <- & _). cbn. lia. }
  exists V. split; [exact E|]. split; [exact W|]. intros x Hx. apply M, mem_iff.
  exists (x, x). split; [now apply (in_map (fun v => (v, v)))|]. apply in_itv_iff. cbn. lia.
Qed.

Lemma narrow_ge_eq t l r : narrow_ge cap t l r =
  match image cap t l, image cap t r with
  | Some A, Some B => upd (col_of r) (cut Least A B B) (upd (col_of l) (cut Greatest A B A) t)
  | _, _ => t
  end.
Proof. reflexivity. Qed.

Lemma narrow_eq_eq t l r : narrow_eq cap t l r =
  match image cap t l, image cap t r with
  | Some A, Some B =>
      match intersection cap A B with
      | Some S0 => upd (col_of r) (Some S0) (upd (col_of l) (Some S0) t)
      | None => t
      end
  | _, _ => t
  end.
Proof. reflexivity. Qed.

Lemma narrow_in_list_eq t col vs : narrow cap t (PInList col vs) =
  match nth_error t col with
  | Some S0 => upd (Some col) (obind (from_intervals cap (map (fun v => (v, v)) vs)) (fun V => intersection cap V S0)) t
  | None => t
  end.
Proof. reflexivity. Qed.

Lemma narrow_bool_col t col :
  narrow cap t (PBoolCol col) = t \/
  nth_error t col = Some [(0, 0)] /\ narrow cap t (PBoolCol col) = map (fun _ => []) t.
Proof. cbn [narrow]. destruct (nth_error t col) as [[|[[|?|?] [|?|?]] [|? ?]]|]; auto. Qed.

Lemma narrow_length p : forall t, length (narrow cap t p) = length t.
Proof.
  induction p as [c l r|p IHp q IHq|p IHp q IHq|col vs|b|bc|e]; intros t.
  - assert (G : forall l r, length (narrow_ge cap t l r) = length t).
    { intros l0 r0. rewrite narrow_ge_eq. destruct (image cap t l0), (image cap t r0); now rewrite ?upd_length. }
    destruct c; cbn [narrow]; auto. rewrite narrow_eq_eq.
    destruct (image cap t l), (image cap t r); auto. destruct (intersection cap _ _); now rewrite ?upd_length.
  - cbn [narrow]. apply or_else_ind; [reflexivity|]. intros z E. now rewrite (map2_opt_length _ _ _ _ E), IHp, IHq.
  - cbn [narrow]. apply or_else_ind; [reflexivity|]. intros z E. now rewrite (map2_opt_length _ _ _ _ E), IHq.
  - rewrite narrow_in_list_eq. destruct (nth_error t col); auto using upd_length.
  - destruct b; cbn; auto using map_length.
  - destruct (narrow_bool_col t bc) as [->|[_ ->]]; auto using map_length.
  - reflexivity.
Qed.

Lemma upd_wf o S0 t : wf_tenv t -> WF cap S0 -> wf_tenv (upd o (Some S0) t).
Proof. intros Ht W. destruct o; cbn; [now apply Forall_replace_nth|exact Ht]. Qed.

Lemma wf_emptied (t : tenv) : wf_tenv (map (fun _ => []) t).
Proof. apply Forall_forall. intros S0 H. apply in_map_iff in H as (_ & <- & _). apply (WF_nil cap cap_gt1). Qed.

Lemma narrow_ge_wf t l r : wf_tenv t -> wf_tenv (narrow_ge cap t l r).
Proof.
  intros Ht. rewrite narrow_ge_eq.
  destruct (image cap t l) as [A|] eqn:EA; auto. destruct (image cap t r) as [B|] eqn:EB; auto.
  apply (image_wf cap cap_gt2) in EA, EB; auto.
  destruct (cut_spec Greatest A B A) as (S1 & -> & W1 & _); auto.
  destruct (cut_spec Least A B B) as (S2 & -> & W2 & _); auto using upd_wf.
Qed.

Lemma narrow_eq_wf t l r : wf_tenv t -> wf_tenv (narrow_eq cap t l r).
Proof.
  intros Ht. rewrite narrow_eq_eq.
  destruct (image cap t l) as [A|] eqn:EA; auto. destruct (image cap t r) as [B|] eqn:EB; auto.
  apply (image_wf cap cap_gt2) in EA, EB; auto. destruct (intersection cap A B) as [S0|] eqn:E; auto.
  apply (intersection_Some cap cap_gt1) in E as [W _]; auto using upd_wf.
Qed.

Lemma narrow_wf p : forall t, wf_tenv t -> wf_tenv (narrow cap t p).
Proof.
  induction p as [c l r|p IHp q IHq|p IHp q IHq|col vs|b|bc|e]; intros t Ht.
  - destruct c; cbn [narrow]; auto using narrow_ge_wf, narrow_eq_wf.
  - cbn [narrow]. apply or_else_ind; [exact Ht|]. intros z E.
    refine (map2_opt_Forall _ _ _ _ _ _ E (IHp _ (IHq _ Ht)) (IHq _ (IHp _ Ht))).
    intros a b c Ha Hb Ec. now apply (intersection_Some cap cap_gt1 a b).
  - cbn [narrow]. apply or_else_ind; [exact Ht|]. intros z E.
    refine (map2_opt_Forall _ _ _ _ _ _ E (IHq _ Ht) (IHp _ Ht)).
    intros a b c Ha Hb Ec. now apply (union_Some cap cap_gt1 a b).
  - rewrite narrow_in_list_eq. destruct (nth_error t col) as [S0|] eqn:En; auto.
    pose proof (image_wf cap cap_gt2 (EVar col) t S0 Ht En) as WS.   (* the type of a column is the image of its variable *)
    destruct (values_spec vs) as (V & -> & WV & _). cbn [obind].
    destruct (intersection cap V S0) as [S1|] eqn:E; [|exact Ht].
    apply (intersection_Some cap cap_gt1) in E as [W _]; auto using upd_wf.
  - destruct b; cbn; auto using wf_emptied.
  - destruct (narrow_bool_col t bc) as [->|[_ ->]]; auto using wf_emptied.
  - exact Ht.
Qed.
End Sound.
