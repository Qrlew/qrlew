(* C03: the mechanisms an event accounts for under composition (any number type); the budget
   arithmetic of one plan and the recorded noise multipliers, over the reals. *)
From Coq Require Import Rbase R_sqrt Rpower Lra Lia List Bool.
From QV Require Import DP.Budget.
Import ListNotations.
Open Scope R_scope.

Section Ev.
Variable T : Type.
Variable tzero : T -> bool.
Notation event := (event T).
Notation is_no_op := (is_no_op T tzero).
Notation leaves := (leaves T tzero).
Notation compose := (compose T tzero).

(* a Fixpoint, so that the heads of the list under Composed are reached by structural recursion *)
Fixpoint no_op_leaves e : is_no_op e = true -> leaves e = [].
Proof.
  destruct e as [|m|e d|l]; cbn; [reflexivity|intros ->; reflexivity..|].
  induction l as [|x l IH]; cbn; [reflexivity|].
  intros [Hx Hl]%andb_prop. rewrite (no_op_leaves x Hx). exact (IH Hl).
Qed.

(* an event as the list that compose concatenates *)
Definition items (e : event) : list event := match e with Composed l => l | _ => [e] end.

Lemma leaves_items e : flat_map leaves (items e) = leaves e.
Proof. destruct e; try apply app_nil_r. reflexivity. Qed.

Theorem compose_keeps a b : leaves (compose a b) = leaves a ++ leaves b.
Proof.
  unfold compose. destruct (is_no_op b) eqn:Eb.
  - rewrite (no_op_leaves b Eb), app_nil_r. reflexivity.
  - destruct (is_no_op a) eqn:Ea.
    + rewrite (no_op_leaves a Ea). reflexivity.
    + transitivity (leaves (Composed (items a ++ items b))); [destruct a, b; reflexivity|].
      cbn [leaves]. rewrite flat_map_app, !leaves_items. reflexivity.
Qed.

Lemma fold_compose_keeps l : forall acc,
  leaves (fold_left compose l acc) = leaves acc ++ flat_map leaves l.
Proof.
  induction l as [|x l IH]; intros acc; cbn [fold_left flat_map]; [now rewrite app_nil_r|].
  rewrite IH, compose_keeps, app_assoc. reflexivity.
Qed.
End Ev.

Definition planR := plan R Rminus Rmult Rdiv 1 INR.
Definition threshold_budgetR := threshold_budget R Rmult.
Definition agg_shareR := agg_share R Rminus 1.

(* the classical calibration: sigma / C for an (eps, delta) Gaussian mechanism *)
Definition nm (e d : R) : R := sqrt (2 * ln (5 / 4 / d)) / e.

Fixpoint sum_eps (l : list (mech R)) : R := match l with [] => 0 | m :: t => m_eps m + sum_eps t end.
Fixpoint sum_del (l : list (mech R)) : R := match l with [] => 0 | m :: t => m_del m + sum_del t end.

Definition params_ok (eps del s : R) : Prop := 0 < eps /\ 0 < del /\ 0 <= s <= 1.

Lemma shares_le m k x : (m <= k)%nat -> 0 <= x -> INR m * (x / INR k) <= x.
Proof.
  intros Hmk Hx. destruct k as [|k]; [replace m with 0%nat by lia; cbn [INR]; lra|].
  assert (Hk : 0 < INR (S k)) by (apply lt_0_INR; lia).
  apply le_INR in Hmk.
  apply Rmult_le_reg_r with (INR (S k)); [exact Hk|].
  unfold Rdiv. rewrite !Rmult_assoc, Rinv_l by lra. nra.
Qed.

Lemma share_bounds n x : (1 <= n)%nat -> 0 < x -> 0 < x / INR n <= x.
Proof.
  intros Hn Hx. split; [apply Rdiv_lt_0_compat; [exact Hx|apply lt_0_INR, Hn]|].
  pose proof (shares_le 1 n x Hn (Rlt_le _ _ Hx)) as H. cbn [INR] in H. lra.
Qed.

(* [sum_eps] is [sum_of m_eps], [sum_del] is [sum_of m_del] *)
Definition sum_of (f : mech R -> R) (l : list (mech R)) : R := fold_right (fun m a => f m + a) 0 l.

Lemma sum_of_app f l1 l2 : sum_of f (l1 ++ l2) = sum_of f l1 + sum_of f l2.
Proof. unfold sum_of. induction l1 as [|m l1 IH]; cbn [app fold_right]; lra. Qed.

Lemma sum_of_repeat f m n : sum_of f (repeat m n) = INR n * f m.
Proof. unfold sum_of. induction n as [|n IH]; [cbn; lra|]. rewrite S_INR. cbn [repeat fold_right]. lra. Qed.

(* A budget c cut into k shares, one for each group, each share cut again among the n mechanisms of its group:
   the component f of the mechanisms that holds these parts adds up to at most c. *)
Lemma sum_of_plan f c ej dj k groups : (length groups <= k)%nat -> (0 < k)%nat -> 0 <= c ->
  (forall n, f {| m_eps := ej / INR n; m_del := dj / INR n; r_eps := ej; r_del := dj |} = c / INR k / INR n) ->
  sum_of f (flat_map (group_mechs R Rdiv INR ej dj) groups) <= c.
Proof.
  intros Hlen Hk Hc Hf. apply lt_0_INR in Hk.
  assert (Hs : 0 <= c / INR k) by (apply Rmult_le_pos; [exact Hc|apply Rlt_le, Rinv_0_lt_compat, Hk]).
  apply Rle_trans with (INR (length groups) * (c / INR k)); [clear Hlen|apply shares_le; assumption].
  induction groups as [|n g IH]; [cbn; lra|].
  cbn [flat_map length]. unfold group_mechs at 1. rewrite sum_of_app, sum_of_repeat, Hf, S_INR.
  pose proof (shares_le n n _ (le_n n) Hs). lra.
Qed.

Theorem budget_fits eps del s th groups : params_ok eps del s ->
  let ms := planR eps del s th groups in
  let t := if th then threshold_budgetR eps del s else (0, 0) in
  sum_eps ms + fst t <= eps /\ sum_del ms + snd t <= del.
Proof.
  intros (He & Hd & Hs) ms t. set (a := agg_shareR s th).
  assert (Ha : 0 <= a) by (unfold a, agg_shareR, agg_share; destruct th; lra).
  (* the sums get the share a, the key release the rest *)
  assert (Ht : t = (eps * (1 - a), del * (1 - a)))
    by (unfold t, a, agg_shareR, agg_share, threshold_budgetR, threshold_budget; destruct th; f_equal; ring).
  rewrite Ht. cbn [fst snd]. change sum_eps with (sum_of m_eps). change sum_del with (sum_of m_del).
  enough (sum_of m_eps ms <= eps * a /\ sum_of m_del ms <= del * a) by lra.
  split; (apply sum_of_plan with (k := Nat.max (length groups) 1); [lia|lia|nra|reflexivity]).
Qed.

Lemma nm_antitone e d e' d' : 0 < e' <= e -> 0 < d' <= d -> nm e d <= nm e' d'.
Proof.
  intros [He' He] [Hd' Hd]. unfold nm.
  assert (Hx : 0 < 5 / 4 / d) by (apply Rdiv_lt_0_compat; lra).
  assert (Hxy : 5 / 4 / d <= 5 / 4 / d') by (apply Rmult_le_compat_l; [lra|apply Rinv_le_contravar; assumption]).
  assert (Hln : ln (5 / 4 / d) <= ln (5 / 4 / d')).
  { destruct Hxy as [Hlt|Heq]; [left; apply ln_increasing; assumption|right; now rewrite Heq]. }
  apply Rmult_le_compat.
  - apply sqrt_pos.
  - apply Rlt_le, Rinv_0_lt_compat. lra.
  - apply sqrt_le_1_alt. lra.
  - apply Rinv_le_contravar; assumption.
Qed.

Theorem recorded_le_applied eps del s th groups m : params_ok eps del s -> (th = true -> s < 1) ->
  In m (planR eps del s th groups) -> nm (r_eps m) (r_del m) <= nm (m_eps m) (m_del m).
Proof.
  intros (He & Hd & Hs) Hth Hin. unfold planR, plan in Hin.
  apply in_flat_map in Hin as (n & _ & Hin). unfold group_mechs in Hin.
  destruct n as [|n]; [destruct Hin|]. apply repeat_spec in Hin as ->. cbn [m_eps m_del r_eps r_del].
  assert (Ha : 0 < agg_share R Rminus 1 s th) by (unfold agg_share; destruct th; [specialize (Hth eq_refl)|]; lra).
  assert (Hk : 0 < INR (Nat.max (length groups) 1)) by (apply lt_0_INR; lia).
  apply nm_antitone; (apply share_bounds; [lia|apply Rdiv_lt_0_compat; [apply Rmult_lt_0_compat|]; assumption]).
Qed.

(* the budget recorded for the key release is the share s of (eps, delta): holds by definition of threshold_budget *)
Theorem threshold_recorded eps del s : threshold_budgetR eps del s = (eps * s, del * s).
Proof. reflexivity. Qed.
