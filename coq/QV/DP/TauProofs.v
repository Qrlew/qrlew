From QV Require Import DP.Tau ListFacts.
From Coq Require Import Rbase Rbasic_fun Lra.
Open Scope Z_scope.

Lemma ex_max {A} (f : A -> Z) l : l = [] \/ exists m, In m l /\ forall y, In y l -> f y <= f m.
Proof.
  induction l as [|a l [->|(m & Hm & Hmax)]]; [left; reflexivity| |]; right.
  - exists a. split; [left; reflexivity|]. intros y [<-|[]]. lia.
  - destruct (Z_le_gt_dec (f a) (f m)).
    + exists m. split; [right; exact Hm|]. intros y [<-|Hy]; [assumption|apply Hmax, Hy].
    + exists a. split; [left; reflexivity|]. intros y [<-|Hy]; [lia|]. apply Hmax in Hy. lia.
Qed.

(* [top c xs]: the numbers of xs that stand at most c-th from the top *)
Definition cntge (x : Z) (xs : list Z) : nat := length (filter (Z.leb x) xs).
Definition top (c : nat) (xs : list Z) : list Z := filter (fun x => (cntge x xs <=? c)%nat) xs.

(* At most c numbers: every kept number is at least the least kept one, m, and at most c numbers are.
   Exactly min(c, n) of n pairwise different ones: when a number is dropped, the numbers from the greatest dropped
   one, d, upwards are d itself and kept ones, and there are more than c of them. *)
Lemma top_length xs c :
  (length (top c xs) <= c)%nat /\ (NoDup xs -> length (top c xs) = Nat.min c (length xs)).
Proof.
  assert (Hle : (length (top c xs) <= c)%nat).
  { destruct (ex_max Z.opp (top c xs)) as [->|(m & Hm & Hmin)]; [apply Nat.le_0_l|].
    apply filter_In in Hm as [_ Hm]. apply Nat.leb_le in Hm.
    apply Nat.le_trans with (cntge m xs); [|exact Hm]. apply filter_length_le.
    intros y Hy Hc. apply Z.leb_le. assert (Hk : In y (top c xs)) by (apply filter_In; auto).
    apply Hmin in Hk. lia. }
  split; [exact Hle|]. intros Hnd.
  set (dropped := filter (fun x => negb (cntge x xs <=? c)%nat) xs).
  assert (Hn : (length (top c xs) + length dropped = length xs)%nat) by apply filter_partition_length.
  destruct (ex_max (fun x => x) dropped) as [E|(d & Hd & Hmax)].
  - (* nothing is dropped *)
    rewrite E in Hn. cbn [length] in Hn. lia.
  - apply filter_In in Hd as [_ Hd]. apply negb_true_iff, Nat.leb_gt in Hd.
    enough (cntge d xs <= S (length (top c xs)))%nat by lia.
    apply (NoDup_incl_length (l' := d :: top c xs)); [apply NoDup_filter, Hnd|].
    intros y [Hy Hdy]%filter_In. apply Z.leb_le in Hdy.
    destruct (cntge y xs <=? c)%nat eqn:K.
    + right. apply filter_In. auto.
    + left. assert (Hk : In y dropped) by (apply filter_In; rewrite K; auto).
      apply Hmax in Hk. lia.
Qed.

Lemma row_eqb_eq a b : row_eqb a b = true <-> a = b.
Proof.
  destruct a, b. unfold row_eqb; cbn [fst snd]. rewrite andb_true_iff, !Z.eqb_eq.
  split; [intros [-> ->]; reflexivity|intros [= -> ->]; auto].
Qed.

Lemma dedup_In r l : In r (dedup l) <-> In r l.
Proof. exact (dedup_by_In row_eqb row_eqb_eq r l). Qed.

Lemma cap_incl cu rank l : incl (cap cu rank l) l.
Proof. apply incl_filter. Qed.

Lemma index_of_unit rank l r : index_of rank l r = cntge (rank r) (map rank (groups_of (fst r) l)).
Proof. unfold index_of, cntge, groups_of. rewrite filter_map_comm, map_length, filter_filter. reflexivity. Qed.

Lemma groups_cap cu rank l u :
  map rank (groups_of u (cap cu rank l)) = top cu (map rank (groups_of u l)).
Proof.
  unfold top. rewrite filter_map_comm. f_equal. unfold cap, groups_of at 1 3. rewrite !filter_filter.
  apply filter_ext. intros r. rewrite andb_comm. destruct (fst r =? u) eqn:E; [|reflexivity].
  apply Z.eqb_eq in E. rewrite index_of_unit, E. reflexivity.
Qed.

(* limit_col_contributions leaves every unit in at most cu groups *)
Lemma cap_bound cu rank l u : (length (groups_of u (cap cu rank l)) <= cu)%nat.
Proof. rewrite <- (map_length rank), groups_cap. apply top_length. Qed.

Lemma zdedup_In x l : In x (zdedup l) <-> In x l.
Proof. exact (dedup_by_In Z.eqb Z.eqb_eq x l). Qed.

Lemma zdedup_NoDup l : NoDup (zdedup l).
Proof. exact (dedup_by_NoDup Z.eqb Z.eqb_eq l). Qed.

Lemma in_holders u k (l : list row) : In u (map fst (filter (fun r => snd r =? k) l)) <-> In (u, k) l.
Proof.
  rewrite in_map_iff. split.
  - intros ([u' k'] & <- & H). apply filter_In in H as [H E]. apply Z.eqb_eq in E. cbn in E. subst. exact H.
  - intros H. exists (u, k). split; [reflexivity|]. apply filter_In. split; [exact H|apply Z.eqb_refl].
Qed.

Lemma units_of_In u k l : In u (units_of k l) <-> In (u, k) l.
Proof. unfold units_of. rewrite zdedup_In. apply in_holders. Qed.

Lemma count_mono k l l' : incl l' l -> count k l' <= count k l.
Proof.
  intros H. unfold count. apply Nat2Z.inj_le. apply NoDup_incl_length; [apply zdedup_NoDup|].
  intros u Hu. apply units_of_In, H, units_of_In, Hu.
Qed.

Lemma count_key k l : 0 < count k l -> In k (map snd l).
Proof.
  unfold count. destruct (units_of k l) as [|u t] eqn:E; [cbn; lia|]. intros _.
  apply (in_map snd _ (u, k)), units_of_In. rewrite E. left. reflexivity.
Qed.

Lemma release_spec tau sigma noise l k :
  In k (release tau sigma noise l) <->
  In k (map snd l) /\ (tau < inject_Z (count k l) + sigma * noise k)%Q.
Proof.
  unfold release. rewrite filter_In. unfold keys. rewrite zdedup_In. unfold above.
  destruct (Qlt_le_dec tau (inject_Z (count k l) + sigma * noise k)) as [Hlt|Hle].
  - tauto.
  - split; [intros [_ H]; discriminate|]. intros [_ H]. exfalso. apply (Qlt_not_le _ _ H Hle).
Qed.

Lemma capped_incl cu rank l : incl (cap cu rank (dedup l)) l.
Proof. intros r Hr. apply dedup_In, (cap_incl cu rank), Hr. Qed.

(* gaussian_tau = 1 + scale * max(0, quantile): never below 1 *)
Open Scope R_scope.
Definition tau_of (scale quantile : R) : R := 1 + scale * Rmax 0 quantile.

Lemma tau_ge_one scale quantile : 0 <= scale -> 1 <= tau_of scale quantile.
Proof.
  intros Hs. unfold tau_of. pose proof (Rmult_le_pos _ _ Hs (Rmax_l 0 quantile)). lra.
Qed.

