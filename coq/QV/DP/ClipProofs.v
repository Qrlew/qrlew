From QV Require Import DP.Clip.
From Coq Require Import Lra.
Open Scope R_scope.

Lemma sumsq_nonneg v : 0 <= sumsq v.
Proof. induction v as [|x t IH]; cbn [sumsq]; nra. Qed.

Lemma sumsq_scale s v : sumsq (map (Rmult s) v) = s * s * sumsq v.
Proof. induction v as [|x t IH]; cbn [map sumsq]; [ring|]. rewrite IH. ring. Qed.

Lemma norm_nonneg v : 0 <= norm v.
Proof. apply sqrt_pos. Qed.

Lemma norm_sq v : norm v * norm v = sumsq v.
Proof. apply sqrt_sqrt, sumsq_nonneg. Qed.

Lemma norm_le C v : 0 <= C -> norm v <= C <-> sumsq v <= C * C.
Proof.
  intros HC. split; intros H.
  - rewrite <- norm_sq. pose proof (norm_nonneg v). nra.
  - rewrite <- (sqrt_square C HC). apply sqrt_le_1_alt, H.
Qed.

Lemma norm_scale s v : 0 <= s -> norm (map (Rmult s) v) = s * norm v.
Proof.
  intros Hs. unfold norm. rewrite sumsq_scale, sqrt_mult_alt, sqrt_square by nra. reflexivity.
Qed.

Lemma factor_cases C v : 0 < C ->
  norm v <= C /\ factor C v = 1 \/ C < norm v /\ factor C v = C / norm v.
Proof.
  intros HC. unfold factor.
  assert (HCi : C * / C = 1) by (apply Rinv_r; lra).   (* for nra and field below *)
  destruct (Rle_lt_dec (norm v) C) as [H|H]; [left|right]; (split; [exact H|]).
  - rewrite Rmax_left by nra. field.
  - rewrite Rmax_right by nra. field. lra.
Qed.

Lemma factor_bounds C v : 0 < C -> 0 < factor C v <= 1.
Proof.
  intros HC. destruct (factor_cases C v HC) as [[_ ->]|[H ->]]; [lra|].
  assert (norm v * / norm v = 1) by (apply Rinv_r; lra). nra.
Qed.

Lemma norm_clip_eq C v : 0 < C -> norm (clip C v) = Rmin (norm v) C.
Proof.
  intros HC. unfold clip. rewrite norm_scale by apply Rlt_le, factor_bounds, HC.
  destruct (factor_cases C v HC) as [[H ->]|[H ->]].
  - rewrite Rmin_left by exact H. ring.
  - rewrite Rmin_right by lra. field. lra.
Qed.

Lemma clip_norm C v : 0 < C -> norm (clip C v) <= C.
Proof. intros HC. rewrite norm_clip_eq by exact HC. apply Rmin_r. Qed.

Lemma map_nth_seq (w : list R) : map (fun g => nth g w 0) (seq 0 (length w)) = w.
Proof.
  induction w as [|x t IH]; cbn [length seq map nth]; [reflexivity|].
  f_equal. rewrite <- seq_shift, map_map. exact IH.
Qed.

Lemma total_app C D1 D2 g : total C (D1 ++ D2) g = total C D1 g + total C D2 g.
Proof. induction D1 as [|u t IH]; cbn [app total]; [ring|]. rewrite IH. ring. Qed.

Lemma clip_length C v : length (clip C v) = length v.
Proof. apply map_length. Qed.

(* neighbouring databases: the rows of one privacy unit added anywhere.  The released vector moves
   by exactly the clipped contribution of that unit ... *)
Lemma change_is_clip C D1 D2 u :
  change C (D1 ++ D2) (D1 ++ u :: D2) (length u) = clip C u.
Proof.
  unfold change. rewrite <- (map_nth_seq (clip C u)), clip_length.
  apply map_ext. intros g. rewrite !total_app. cbn [total]. ring.
Qed.

(* ... hence by at most C in Euclidean norm *)
Lemma sensitivity C D1 D2 u :
  0 < C -> norm (change C (D1 ++ D2) (D1 ++ u :: D2) (length u)) <= C.
Proof. intros HC. rewrite change_is_clip. apply clip_norm, HC. Qed.
