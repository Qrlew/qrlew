(* Sensitivity of the per-key count of distinct privacy units after the cap: adding all the rows of
   one new unit changes at most cu counts, each by exactly one (C04_count_sensitivity, C04_moved_keys_bound).
   This is the L2 sensitivity sqrt(cu) the noise of the key release is calibrated to
   (gaussian_noise(eps, delta, sqrt(Cu))).  Here: the cap and the counts are additive over a new unit. *)
From QV Require Import DP.Tau DP.TauProofs ListFacts.
Open Scope Z_scope.

Definition fresh (u : Z) (l : list (Z * Z)) : Prop := forall r, In r l -> fst r <> u.
Definition of_unit (u : Z) (l : list (Z * Z)) : Prop := forall r, In r l -> fst r = u.

Lemma groups_of_fresh u l : fresh u l -> groups_of u l = [].
Proof. intros H. apply (filter_const _ false). intros r Hr. apply Z.eqb_neq, H, Hr. Qed.

Lemma groups_of_unit u l : of_unit u l -> groups_of u l = l.
Proof. intros H. apply (filter_const _ true). intros r Hr. apply Z.eqb_eq, H, Hr. Qed.

Lemma index_of_app rank l l' r : index_of rank (l ++ l') r = (index_of rank l r + index_of rank l' r)%nat.
Proof. unfold index_of. rewrite filter_app. apply app_length. Qed.

Lemma index_of_fresh rank l r : fresh (fst r) l -> index_of rank l r = 0%nat.
Proof. intros H. rewrite index_of_unit, groups_of_fresh by exact H. reflexivity. Qed.

Lemma cap_app cu rank l new u : fresh u l -> of_unit u new ->
  cap cu rank (l ++ new) = cap cu rank l ++ cap cu rank new.
Proof.
  intros Hl Hn. unfold cap. rewrite filter_app.
  f_equal; apply filter_ext_in; intros r Hr; rewrite index_of_app.
  - rewrite (index_of_fresh rank new r), Nat.add_0_r; [reflexivity|].
    intros r' Hr'. rewrite (Hn r' Hr'). apply not_eq_sym, Hl, Hr.
  - rewrite (index_of_fresh rank l r); [reflexivity|].
    intros r' Hr'. rewrite (Hn r Hr). apply Hl, Hr'.
Qed.

Lemma cap_fresh cu rank l u : fresh u l -> fresh u (cap cu rank l).
Proof. intros H r Hr. apply H, (cap_incl cu rank), Hr. Qed.

Lemma cap_of_unit cu rank l u : of_unit u l -> of_unit u (cap cu rank l).
Proof. intros H r Hr. apply H, (cap_incl cu rank), Hr. Qed.

Lemma zdedup_app xs ys : (forall x, In x xs -> ~ In x ys) -> zdedup (xs ++ ys) = zdedup xs ++ zdedup ys.
Proof.
  induction xs as [|x t IH]; intros H; cbn [app zdedup]; [reflexivity|].
  rewrite existsb_app, (proj1 (not_true_iff_false (existsb (Z.eqb x) ys)))
    by (rewrite (existsb_eqb_In Z.eqb Z.eqb_eq); apply H; left; reflexivity).
  rewrite IH by (intros y Hy; apply H; right; exact Hy).
  destruct (existsb (Z.eqb x) t); reflexivity.
Qed.

Lemma count_app k l new u : fresh u l -> of_unit u new ->
  count k (l ++ new) = count k l + count k new.
Proof.
  intros Hl Hn. unfold count, units_of. rewrite filter_app, map_app, zdedup_app, app_length; [lia|].
  intros x Hx Hy. apply in_holders in Hx, Hy. exact (Hl _ Hx (Hn _ Hy)).
Qed.

Lemma count_one_unit k new u : of_unit u new -> 0 <= count k new <= 1.
Proof.
  intros Hn. unfold count. split; [lia|]. apply (Nat2Z.inj_le _ (length [u])).
  apply NoDup_incl_length; [apply zdedup_NoDup|].
  intros x Hx. left. apply units_of_In in Hx. symmetry. exact (Hn _ Hx).
Qed.
