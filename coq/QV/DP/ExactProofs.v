From QV Require Import DP.Exact.
From Coq Require Import Lia Lqa Qfield.
Open Scope Q_scope.

Lemma qlen_cons x l : qlen (x :: l) == 1 + qlen l.
Proof.
  unfold qlen. cbn [length]. rewrite Nat2Z.inj_succ. unfold Z.succ. rewrite inject_Z_plus. ring.
Qed.

Lemma qlen_ge1 l : l <> [] -> 1 <= qlen l.
Proof.
  destruct l as [|x t]; [congruence|]. intros _. rewrite qlen_cons.
  assert (0 <= qlen t) by (unfold qlen; change 0 with (inject_Z 0); rewrite <- Zle_Qle; lia). lra.
Qed.

Lemma dev_expand m l :
  qsum (map (fun x => (x - m) * (x - m)) l) == qsumsq l - 2 * m * qsum l + qlen l * m * m.
Proof.
  induction l as [|x t IH].
  - unfold qsumsq, qlen. cbn. ring.
  - unfold qsumsq in *. cbn [map qsum]. rewrite IH, qlen_cons. ring.
Qed.

Lemma variance_moments l : l <> [] ->
  variance l == qsumsq l / qlen l - (qsum l / qlen l) * (qsum l / qlen l).
Proof.
  intros Hl. apply qlen_ge1 in Hl. unfold variance. rewrite dev_expand. unfold mean.
  field. lra.
Qed.

Lemma dev_nonneg m l : 0 <= qsum (map (fun x => (x - m) * (x - m)) l).
Proof.
  induction l as [|y l IH]; cbn [map qsum]; [apply Qle_refl|].
  destruct (Qlt_le_dec (y - m) 0); nra.
Qed.

Lemma variance_nonneg l : l <> [] -> 0 <= variance l.
Proof.
  intros Hl. apply qlen_ge1 in Hl. unfold variance.
  apply Qle_shift_div_l; [lra|]. rewrite Qmult_0_l. apply dev_nonneg.
Qed.

Lemma Qmax_1_count l : nonnull l <> [] -> Qmax 1 (s_count l) == s_count l.
Proof. intros H. apply Q.max_r, qlen_ge1, H. Qed.

Lemma oq_eqb_refl a : oq_eqb a a = true.
Proof. destruct a; cbn; [apply Qeq_bool_iff; reflexivity|reflexivity]. Qed.

(* DISTINCT: when no value is shared between two units (unshared) the per-unit de-duplication is the
   de-duplication of the values (ddedup_values) *)
Lemma unshared rows r r' : shared rows = false -> In r rows -> In r' rows ->
  oq_eqb (snd r) (snd r') = true -> fst r = fst r'.
Proof.
  intros Hs Hr Hr' He. destruct (Z.eqb_spec (fst r) (fst r')) as [E|N]; [exact E|].
  apply not_true_iff_false in Hs. destruct Hs. unfold shared.
  apply existsb_exists. exists r. split; [exact Hr|].
  apply existsb_exists. exists r'. split; [exact Hr'|].
  rewrite He, andb_true_r. apply negb_true_iff, Z.eqb_neq, N.
Qed.

Lemma existsb_drow r t : (forall r', In r' t -> oq_eqb (snd r) (snd r') = true -> fst r = fst r') ->
  existsb (drow_eqb r) t = existsb (oq_eqb (snd r)) (map snd t).
Proof.
  induction t as [|r' t IH]; intros H; [reflexivity|]. cbn [existsb map].
  rewrite IH by (intros r'' Hr''; apply H; right; exact Hr''). f_equal.
  unfold drow_eqb. destruct (oq_eqb (snd r) (snd r')) eqn:E; [|apply andb_false_r].
  rewrite (H r' (or_introl eq_refl) E), Z.eqb_refl. reflexivity.
Qed.

Lemma ddedup_values rows :
  (forall r r', In r rows -> In r' rows -> oq_eqb (snd r) (snd r') = true -> fst r = fst r') ->
  map snd (ddedup rows) = vdedup (map snd rows).
Proof.
  induction rows as [|r t IH]; intros H; [reflexivity|]. cbn [ddedup map vdedup].
  rewrite existsb_drow by (intros r' Hr'; apply H; [left; reflexivity|right; exact Hr']).
  rewrite <- IH by (intros r1 r2 H1 H2; apply H; right; assumption).
  destruct (existsb (oq_eqb (snd r)) (map snd t)); reflexivity.
Qed.

Lemma window_incl {A} lim off (l : list A) : incl (window lim off l) l.
Proof.
  intros x Hx. rewrite <- (firstn_skipn off l). apply in_or_app. right.
  rewrite <- (firstn_skipn lim (skipn off l)). apply in_or_app. left. exact Hx.
Qed.

Lemma window_map : forall (A B : Type) (f : A -> B) lim off (l : list A),
  window lim off (map f l) = map f (window lim off l).
Proof. intros A B f lim off l. unfold window. rewrite skipn_map, firstn_map. reflexivity. Qed.

Lemma Forall2_map_in {A B} (R : B -> B -> Prop) (f g : A -> B) l :
  (forall x, In x l -> R (f x) (g x)) -> Forall2 R (map f l) (map g l).
Proof.
  induction l as [|x t IH]; intros H; cbn [map]; constructor; [apply H; left; reflexivity|].
  apply IH. intros y Hy. apply H. right. exact Hy.
Qed.
