(* C13: the search returns exactly the consistent derivations and picks a best one. *)
From QV Require Import Rules.Model ListFacts.

Lemma label_eqb_eq a b : label_eqb a b = true <-> a = b.
Proof. split; [destruct a, b; (reflexivity || discriminate)|intros ->; now destruct b]. Qed.

Lemma labels_eqb_eq x : forall y, labels_eqb x y = true <-> x = y.
Proof. exact (list_eqb_by_eq label_eqb label_eqb_eq x). Qed.

Fixpoint tree_ind' (P : tree -> Prop)
  (H : forall k rs ts, Forall P ts -> P (Node k rs ts)) (t : tree) : P t :=
  match t with
  | Node k rs ts =>
      H k rs ts ((fix go (ts : list tree) : Forall P ts :=
                    match ts with
                    | [] => Forall_nil P
                    | t :: ts' => Forall_cons t (tree_ind' P H t) (go ts')
                    end) ts)
  end.

Fixpoint deriv_ind' (P : deriv -> Prop)
  (H : forall r ds, Forall P ds -> P (D r ds)) (d : deriv) : P d :=
  match d with
  | D r ds =>
      H r ds ((fix go (ds : list deriv) : Forall P ds :=
                 match ds with
                 | [] => Forall_nil P
                 | d :: ds' => Forall_cons d (deriv_ind' P H d) (go ds')
                 end) ds)
  end.

(* a derivation assigns to every node one of its rules whose inputs are exactly the
   labels produced at the children *)
Inductive consistent : tree -> deriv -> Prop :=
| Cons k rs ts r ds :
    In r rs -> Forall2 consistent ts ds -> ins r = map dout ds ->
    consistent (Node k rs ts) (D r ds).

Lemma consistent_node k rs ts r ds :
  consistent (Node k rs ts) (D r ds) <-> In r rs /\ Forall2 consistent ts ds /\ ins r = map dout ds.
Proof. split; [intros H; inversion H; auto|intros (? & ? & ?); now constructor]. Qed.

Lemma cart_spec {A} (ls : list (list A)) : forall xs,
  In xs (cart ls) <-> Forall2 (fun l x => In x l) ls xs.
Proof.
  induction ls as [|l rest IH]; intros xs; cbn [cart].
  - split.
    + intros [<-|[]]. constructor.
    + intros H. inversion H. left. reflexivity.
  - rewrite in_flat_map. split.
    + intros (x & Hx & Hm). apply in_map_iff in Hm as (ys & <- & Hy). constructor; auto. now apply IH.
    + intros H. inversion H as [|? x ? ys Hx Hr]. exists x. split; auto.
      apply in_map_iff. exists ys. split; auto. now apply IH.
Qed.

Theorem select_spec t : forall d, In d (select t) <-> consistent t d.
Proof.
  induction t as [k rs ts IH] using tree_ind'. intros [r ds]. cbn [select].
  rewrite consistent_node, <- (Forall2_map_iff select (fun l x => In x l) _ _ IH), <- cart_spec, in_flat_map.
  split.
  - intros (ds' & Hds & Hd). apply in_map_iff in Hd as (r' & [= -> ->] & Hr).
    apply filter_In in Hr as [Hr He]. apply labels_eqb_eq in He. auto.
  - intros (Hr & Hds & He). exists ds. split; [exact Hds|].
    apply (in_map (fun r => D r ds)), filter_In. split; [exact Hr|]. now apply labels_eqb_eq.
Qed.

Lemma eliminate_rules_subset t : forall r, In r (rules_of (eliminate t)) -> In r (rules_of t).
Proof. destruct t as [k rs ts]. cbn. intros r H. apply filter_In in H. tauto. Qed.

Lemma feasible_consistent ts ds : Forall2 consistent ts ds -> feasible (map dout ds) ts = true.
Proof.
  induction 1 as [|[k rs ts'] [r ds'] ts ds H _ IH]; [reflexivity|]. cbn. rewrite IH, andb_true_r.
  apply consistent_node in H as [Hr _]. apply existsb_exists. exists r. split; [exact Hr|]. now apply label_eqb_eq.
Qed.

Lemma eliminate_consistent t : forall d, consistent (eliminate t) d <-> consistent t d.
Proof.
  induction t as [k rs ts IH] using tree_ind'. intros [r ds]. cbn [eliminate].
  pose proof (Forall2_map_iff eliminate consistent consistent ts IH ds) as F.
  rewrite !consistent_node, filter_In, F. split; [tauto|].
  intros (Hr & Hf & He). repeat split; auto. rewrite He. now apply feasible_consistent, F.
Qed.

Theorem select_eliminate_spec t d : In d (select (eliminate t)) <-> consistent t d.
Proof. rewrite select_spec. apply eliminate_consistent. Qed.

(* what max_by_last returns: a maximal element of the list, nothing on the empty list only (stated over the result [o]
   so that one lemma serves both).  Proof from the right end: max_by on l ++ [a] compares the maximum kept so far with a,
   and keeps a when they tie *)
Lemma max_by_last_spec {A} (f : A -> Z) l o : max_by_last f l = o ->
  match o with
  | Some m => In m l /\ forall x, In x l -> (f x <= f m)%Z
  | None => l = []
  end.
Proof.
  intros <-. induction l as [|a l IH] using rev_ind; [reflexivity|].
  unfold max_by_last in *. rewrite fold_left_app. cbn [fold_left]. destruct (fold_left _ l None) as [b|].
  - destruct IH as [Hin Hmax].
    (* whichever of b and a is kept is above both, hence above all of l ++ [a] *)
    assert (B : forall m, (f b <= f m)%Z -> (f a <= f m)%Z -> forall x, In x (l ++ [a]) -> (f x <= f m)%Z).
    { intros m Hb Ha x Hx. apply in_app_iff in Hx as [Hx|[<-|[]]]; [specialize (Hmax x Hx); lia|exact Ha]. }
    destruct (Z.leb_spec (f b) (f a)); (split; [|apply B; lia]).
    + apply in_elt.
    + apply in_app_iff. now left.
  - subst l. split; [now left|]. intros x [<-|[]]. lia.
Qed.

Section Best.
Variable w : label -> Z.
Variable acc : label -> bool.

Lemma candidates_spec t d : In d (candidates acc t) <-> consistent t d /\ acc (dout d) = true.
Proof. unfold candidates. now rewrite filter_In, select_eliminate_spec. Qed.

Theorem best_sound t d : best w acc t = Some d -> consistent t d /\ acc (dout d) = true.
Proof. intros H. apply max_by_last_spec in H as [H _]. now apply candidates_spec. Qed.

Theorem best_optimal t d d' :
  best w acc t = Some d -> consistent t d' -> acc (dout d') = true -> (score w d' <= score w d)%Z.
Proof. intros H Hc Ha. apply max_by_last_spec in H as [_ H]. apply H. now apply candidates_spec. Qed.

Theorem best_some_iff t :
  (exists d, best w acc t = Some d) <-> (exists d, consistent t d /\ acc (dout d) = true).
Proof.
  split.
  - intros [d H]. exists d. now apply best_sound.
  - intros [d H]. apply candidates_spec in H. destruct (best w acc t) as [m|] eqn:E; [eauto|].
    apply max_by_last_spec in E. now rewrite E in H.
Qed.
End Best.

(* the rule a consistent derivation applies at a node has one input per child.  That every rule of
   a tree has (so that the index rr.inputs()[i] of the eliminator is in range) is arity_ok,
   evaluated on the trees of each run in Corr/Rules.v *)
Lemma consistent_arity t d : consistent t d ->
  match t, d with Node _ _ ts, D r ds => length (ins r) = length ds /\ length ts = length ds end.
Proof.
  destruct t, d. intros H. apply consistent_node in H as (_ & Hf & He).
  split; [rewrite He; apply map_length|]. clear He. induction Hf; cbn; auto.
Qed.
