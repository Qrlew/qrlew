(* C02: a meaning for the labels over the origin of data, and the local condition on
   rules that makes it inductive. *)
From QV Require Import Rules.Model Rules.Search ListFacts.

(* labels under which a relation may be handed out *)
Definition safe (l : label) : bool :=
  match l with Public | Published | DP | SD => true | Private | PUP => false end.

(* the only noise-adding step: a Reduce turning privacy-unit-preserving input into DP *)
Definition is_dp_rule (k : kind) (r : rule) : bool :=
  match k with
  | KReduce => labels_eqb (ins r) [PUP] && label_eqb (out r) DP
  | _ => false
  end.

(* raw t d: under derivation d the value of node t depends on the rows of a protected
   table read as they are (not its synthetic replacement) along a path that crosses no
   DP aggregation *)
Fixpoint raw (t : tree) (d : deriv) : bool :=
  match t, d with
  | Node k _ ts, D r ds =>
      match k with
      | KTable protected => protected && negb (label_eqb (out r) SD)
      | KValues => false
      | _ =>
          if is_dp_rule k r then false
          else (fix go (ts : list tree) (ds : list deriv) : bool :=
                  match ts, ds with
                  | t :: ts', d :: ds' => raw t d || go ts' ds'
                  | _, _ => false
                  end) ts ds
      end
  end.

(* the inner loop of raw under a name: raw_node holds by unfolding *)
Fixpoint raw_list (ts : list tree) (ds : list deriv) : bool :=
  match ts, ds with
  | t :: ts', d :: ds' => raw t d || raw_list ts' ds'
  | _, _ => false
  end.

Lemma raw_node k rs ts r ds :
  raw (Node k rs ts) (D r ds) =
  match k with
  | KTable protected => protected && negb (label_eqb (out r) SD)
  | KValues => false
  | _ => if is_dp_rule k r then false else raw_list ts ds
  end.
Proof. reflexivity. Qed.

(* local soundness of one rule at one kind of node *)
Definition rule_ok (k : kind) (r : rule) : bool :=
  match k with
  | KTable true => negb (safe (out r)) || label_eqb (out r) SD
  | KTable false | KValues => true
  | _ => negb (safe (out r)) || is_dp_rule k r || forallb safe (ins r)
  end.

Fixpoint all_rules_ok (t : tree) : bool :=
  match t with
  | Node k rs ts => forallb (rule_ok k) rs && forallb all_rules_ok ts
  end.

(* children whose labels may all be handed out, each clean by induction: none is raw *)
Lemma raw_list_clean ts ds :
  Forall (fun t => forall d, all_rules_ok t = true -> consistent t d -> safe (dout d) = true -> raw t d = false) ts ->
  forallb all_rules_ok ts = true -> Forall2 consistent ts ds -> forallb safe (map dout ds) = true ->
  raw_list ts ds = false.
Proof.
  intros IH Hok Hc. induction Hc as [|t d ts ds Hc _ IHc]; cbn in *; [reflexivity|].
  apply andb_true_iff in Hok as [Ht Hts]. inversion IH as [|? ? IHt IHts].
  intros Hs. apply andb_true_iff in Hs as [Hd Hds]. now rewrite IHt, IHc.
Qed.

Theorem derivation_clean t : forall d,
  all_rules_ok t = true -> consistent t d -> safe (dout d) = true -> raw t d = false.
Proof.
  induction t as [k rs ts IH] using tree_ind'. intros [r ds] Hok Hc Hs.
  apply consistent_node in Hc as (Hr & Hf & He). rewrite raw_node.
  cbn [all_rules_ok] in Hok. apply andb_true_iff in Hok as [Hrs Hts].
  assert (Hrk : rule_ok k r = true) by (rewrite forallb_forall in Hrs; auto).
  change (safe (out r) = true) in Hs.
  destruct k as [[|]| | | | |]; cbn [rule_ok] in Hrk; rewrite ?Hs in Hrk; cbn [negb orb] in Hrk.
  2, 7: reflexivity.   (* a public table, a list of values *)
  (* a protected table: the label handed out is SD, which reads the synthetic replacement *)
  1: now rewrite Hrk.
  (* Map, Reduce, Join, Set: the DP aggregation cuts the path; any other rule with a safe
     output has safe inputs only *)
  all: destruct (is_dp_rule _ r); [reflexivity|]; rewrite He in Hrk; now apply raw_list_clean.
Qed.

(* trees whose nodes carry rule lists of a given table; an entry is (synthetic data given, Strategy::Hard, kind of
   node, the rules RewritingRulesSetter attaches to such a node), as harness/src/rules.rs::generate writes them *)
Section Table.
Variable table : list (bool * bool * kind * list rule).

Definition table_ok : bool := forallb (fun e => forallb (rule_ok (snd (fst e))) (snd e)) table.

Definition kind_eqb (a b : kind) : bool :=
  match a, b with
  | KTable x, KTable y => Bool.eqb x y
  | KMap, KMap | KReduce, KReduce | KJoin, KJoin | KSet, KSet | KValues, KValues => true
  | _, _ => false
  end.

Fixpoint rules_eqb (x y : list rule) : bool :=
  match x, y with
  | [], [] => true
  | a :: x', b :: y' => rule_eqb a b && rules_eqb x' y'
  | _, _ => false
  end.

Definition in_table (syn hard : bool) (k : kind) (rs : list rule) : bool :=
  existsb (fun e => let '(s, h, k', rs') := e in
                    Bool.eqb s syn && Bool.eqb h hard && kind_eqb k' k && rules_eqb rs' rs) table.

Fixpoint from_table (syn hard : bool) (t : tree) : bool :=
  match t with
  | Node k rs ts => in_table syn hard k rs && forallb (from_table syn hard) ts
  end.

Lemma rule_eqb_eq r s : rule_eqb r s = true <-> r = s.
Proof.
  destruct r as [i o], s as [i' o']. unfold rule_eqb; cbn [ins out].
  rewrite andb_true_iff, labels_eqb_eq, label_eqb_eq. split; [intros [-> ->]; reflexivity|intros [= -> ->]; auto].
Qed.

Lemma rules_eqb_eq x : forall y, rules_eqb x y = true <-> x = y.
Proof. exact (list_eqb_by_eq rule_eqb rule_eqb_eq x). Qed.

Lemma kind_eqb_eq a b : kind_eqb a b = true -> a = b.
Proof. destruct a as [[|]| | | | |], b as [[|]| | | | |]; (reflexivity || discriminate). Qed.

Lemma in_table_ok syn hard k rs :
  table_ok = true -> in_table syn hard k rs = true -> forallb (rule_ok k) rs = true.
Proof.
  intros Hok H. apply existsb_exists in H as ([[[s h] k'] rs'] & Hin & He).
  apply andb_true_iff in He as [He Hrs]. apply andb_true_iff in He as [_ Hk].
  apply kind_eqb_eq in Hk as <-. apply rules_eqb_eq in Hrs as <-.
  unfold table_ok in Hok. rewrite forallb_forall in Hok. apply (Hok _ Hin).
Qed.

Lemma from_table_ok syn hard t : table_ok = true -> from_table syn hard t = true -> all_rules_ok t = true.
Proof.
  intros Hok. induction t as [k rs ts IH] using tree_ind'. cbn [from_table all_rules_ok].
  rewrite !andb_true_iff. intros [H1 H2]. split; [now apply (in_table_ok syn hard)|].
  rewrite forallb_forall in *. rewrite Forall_forall in IH. auto.
Qed.

Theorem rewrite_dp_clean syn hard t d :
  table_ok = true -> from_table syn hard t = true ->
  rewrite_dp t = Some d -> raw t d = false.
Proof.
  intros Hok Hft H. apply best_sound in H as [Hc Ha].
  apply derivation_clean; [eapply from_table_ok; eauto|exact Hc|].
  (* accept_dp lets through the safe labels *)
  now destruct (dout d).
Qed.
End Table.
