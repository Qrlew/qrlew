From QV Require Import Sql.Parens.

Section Proofs.
Variables (bl br bpre bpost : nat -> nat).
Notation parse := (parse bl br bpre bpost).
Notation loop := (loop bl br bpost).

Lemma loop_closes p min g lhs rest : closes rest -> 1 <= g -> loop p min g lhs rest = Some (lhs, rest).
Proof.
  intros Hc Hg. destruct g as [|g']; [lia|]. cbn [Parens.loop].
  destruct Hc as [->|(r & ->)]; reflexivity.
Qed.

(* a parenthesised group is read back whatever binding power the context asks for *)
Lemma group_parses e :
  (forall rest, closes rest -> forall fuel, need e <= fuel -> parse fuel 0 (pr e ++ rest) = Some (e, rest)) ->
  forall rest min, closes rest -> forall fuel, need e + 2 <= fuel ->
  parse fuel min (TLp :: pr e ++ TRp :: rest) = Some (e, rest).
Proof.
  intros IH rest min Hc fuel Hf. destruct fuel as [|f]; [lia|]. cbn [Parens.parse].
  rewrite (IH (TRp :: rest)) by (try lia; right; eauto). apply loop_closes; [exact Hc|lia].
Qed.

(* [need e] is fuel enough: every call of [parse] and every turn of [loop] takes one unit, and the operator
   loop runs once more after each operand to see that what follows closes the expression.  The outer call
   is made with min = 0, where no operator is too weak to be taken ([bl o <? 0] and [bpost o <? 0] compute
   to false); inside the parentheses the same holds, and around them [min] does not matter (group_parses). *)
Theorem parse_pr e : forall rest, closes rest -> forall fuel, need e <= fuel ->
  parse fuel 0 (pr e ++ rest) = Some (e, rest).
Proof.
  induction e as [n|o a IHa b IHb|o a IHa|o a IHa]; intros rest Hc fuel Hf; cbn [pr need] in *;
    (destruct fuel as [|f]; [lia|]); cbn [app]; repeat (rewrite <- app_assoc; cbn [app]); cbn [Parens.parse].
  - apply loop_closes; [exact Hc|lia].
  - rewrite (IHa (TRp :: TBin o :: TLp :: pr b ++ TRp :: rest)) by (try lia; right; eauto).
    destruct f as [|g]; [lia|]. cbn [Parens.loop Nat.ltb Nat.leb].
    rewrite (group_parses b IHb rest (br o) Hc) by lia.
    apply loop_closes; [exact Hc|lia].
  - rewrite (group_parses a IHa rest (bpre o) Hc) by lia.
    apply loop_closes; [exact Hc|lia].
  - rewrite (IHa (TRp :: TPost o :: rest)) by (try lia; right; eauto).
    destruct f as [|g]; [lia|]. cbn [Parens.loop Nat.ltb Nat.leb].
    apply loop_closes; [exact Hc|lia].
Qed.
End Proofs.
