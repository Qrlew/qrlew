From QV Require Import Sql.Quote.
Open Scope N_scope.

(* what the writer produces on clean input: every delimiter doubled, nothing else touched *)
Definition dbl (q : N) (s : list N) : list N := flat_map (fun c => if c =? q then [q; q] else [c]) s.

Lemma esc_clean q s : forall prev, clean q prev s = true -> esc q prev s = dbl q s.
Proof.
  induction s as [|ch t IH]; intros prev Hc; [reflexivity|].
  cbn [clean] in Hc. apply andb_true_iff in Hc as [H1 H2]. specialize (IH ch H2).
  cbn [esc dbl flat_map]. destruct (ch =? q) eqn:E; [|now rewrite IH].
  apply N.eqb_eq in E as ->. apply negb_true_iff, orb_false_iff in H1 as [-> _].
  destruct t as [|c2 t']; [reflexivity|].
  (* two delimiters in a row are excluded, so the look-ahead of the writer sees no delimiter *)
  cbn [clean] in H2. rewrite N.eqb_refl, orb_true_r, andb_true_r in H2.
  apply andb_true_iff in H2 as [H2 _]. apply negb_true_iff in H2 as ->. now rewrite IH.
Qed.

Lemma scan_dbl q s : forall acc, scan q (dbl q s ++ [q]) acc = Some (acc ++ s, []).
Proof.
  induction s as [|ch t IH]; intros acc; cbn [dbl flat_map].
  - cbn. now rewrite N.eqb_refl, app_nil_r.
  - fold (dbl q t). destruct (ch =? q) eqn:E; cbn [app scan].
    + apply N.eqb_eq in E as ->. now rewrite !N.eqb_refl, IH, <- app_assoc.
    + now rewrite E, IH, <- app_assoc.
Qed.

Theorem quote_roundtrip q s : clean q 0 s = true -> unquote q (quote q s) = Some s.
Proof.
  intros Hc. unfold unquote, quote. now rewrite N.eqb_refl, (esc_clean q s 0 Hc), scan_dbl.
Qed.

(* the full statement is false: a value with two delimiters in a row, or a delimiter after a
   backslash, does not survive (sqlparser's EscapeQuotedString guesses that it is already escaped) *)
Theorem quote_roundtrip_refuted : exists q s, unquote q (quote q s) <> Some s.
Proof. exists 39, [97; 39; 39; 98]. vm_compute. discriminate. Qed.

Example quote_examples :
  quote 34 [97; 34; 98] = [34; 97; 34; 34; 98; 34] /\ unquote 34 [34; 97; 34; 34; 98; 34] = Some [97; 34; 98] /\
  unquote 39 (quote 39 [105; 116; 39; 115]) = Some [105; 116; 39; 115] /\
  unquote 39 (quote 39 [97; 92; 39; 98]) = None.
Proof. vm_compute. repeat split. Qed.
