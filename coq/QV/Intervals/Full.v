(* The subset test is sound:  is_subset_of a b = Some true  ->  a is included in b,
   although the fold that computes the intersection may replace the accumulator by its hull when it
   reaches the capacity.  Fix an interval A of a.  The invariant below says that an interval of the
   accumulator lying within A holds points of b only and starts where a piece of A starts: at the
   larger of the lower end of A and that of an interval of b.  The intervals of a well-formed list
   start at different points, so a hull of cap intervals or more cannot lie within A when b has
   fewer than cap intervals. *)
From QV Require Import Intervals.Model Intervals.Proofs.
Open Scope Z_scope.

Lemma wf_pairs l : wf l -> ForallOrdPairs (fun I J => snd I < fst J) l.
Proof.
  induction l as [|[a b] t IH]; intros Hw; constructor.
  - apply (wf_lo_gt_all b t); apply Hw.
  - apply IH, Hw.
Qed.

Lemma wf_unique l I J v : wf l -> In I l -> In J l -> in_itv v I = true -> in_itv v J = true -> I = J.
Proof.
  intros Hw HI HJ Iv%in_itv_iff Jv%in_itv_iff.
  destruct (ForallOrdPairs_In (wf_pairs l Hw) I J HI HJ) as [E|[H|H]]; [exact E|lia|lia].
Qed.

Lemma wf_los l : wf l -> NoDup (map fst l).
Proof.
  induction l as [|[a b] t IH]; intros Hw; cbn [map]; constructor; destruct Hw as (Hab & Hlt & Hw); [|auto].
  intros (J & E & HJ)%in_map_iff. pose proof (wf_lo_gt_all b t Hw Hlt) as F.
  rewrite Forall_forall in F. specialize (F J HJ). cbn [fst] in E. lia.
Qed.

Section Within.
Variable cap : nat.
Variables (A : Z * Z) (other : ivs).

Definition within (I : Z * Z) : Prop := fst A <= fst I /\ snd I <= snd A.
(* where the pieces of A start *)
Definition starts : list Z := map (fun B => Z.max (fst A) (fst B)) other.
Definition G (I : Z * Z) : Prop :=
  within I -> (forall v, in_itv v I = true -> mem v other = true) /\ In (fst I) starts.

Lemma G_merge a b mn mx : G (a, b) -> G (mn, mx) -> mn <= b -> a <= mx -> G (Z.min a mn, Z.max b mx).
Proof.
  intros G1 G2 N1 N2 [Hlo Hhi]. cbn [fst snd] in Hlo, Hhi.
  destruct G1 as [C1 S1]; [split; cbn [fst snd]; lia|]. destruct G2 as [C2 S2]; [split; cbn [fst snd]; lia|].
  split.
  - intros v Hv. rewrite in_itv_merge in Hv by assumption. apply orb_true_iff in Hv as [Hv|Hv]; auto.
  - cbn [fst] in *. apply Z.min_case; assumption.
Qed.

Hypothesis other_small : (length other < cap)%nat.

(* the hull of cap intervals or more does not lie within A: the intervals would start at cap
   different points of starts *)
Lemma hull_G l : wf l -> Forall G l -> (cap <= length l)%nat -> Forall G (hull l).
Proof.
  intros Hw Hg Hc. destruct l as [|[a b] t]; cbn [hull]; [constructor|]. constructor; [|constructor].
  intros [Hlo Hhi]. cbn [fst snd] in Hlo, Hhi. exfalso.
  rewrite Forall_forall in Hg.
  enough (length ((a, b) :: t) <= length other)%nat by lia.
  rewrite <- (map_length fst), <- (map_length (fun B => Z.max (fst A) (fst B)) other).
  apply NoDup_incl_length; [apply wf_los, Hw|].
  intros x (J & <- & HJ)%in_map_iff. apply (Hg J HJ). pose proof (wf_span t a b Hw J HJ). split; lia.
Qed.

Lemma simplify_G l : wf l -> Forall G l -> Forall G (simplify cap l).
Proof.
  intros Hw Hg. unfold simplify. destruct (Nat.ltb_spec (length l) cap); [exact Hg|now apply hull_G].
Qed.

Lemma union_into_G src : forall acc r, wf acc -> wf src ->
  Forall G acc -> Forall G src -> union_into cap acc src = Some r -> Forall G r /\ wf r.
Proof.
  induction src as [|[mn mx] t IH]; intros acc r Hw Hs Hg Gs; cbn [union_into].
  - intros [= <-]. split; assumption.
  - inversion Gs as [|? ? Hi Ht]. destruct Hs as (Hle & _ & Hs).
    rewrite union_interval_eq by exact Hle. cbn [obind].
    assert (Hu : wf (uni acc mn mx)) by now apply uni_wf.
    apply IH; [apply simplify_wf, Hu|exact Hs| |exact Ht]. apply simplify_G; [exact Hu|].
    apply uni_Forall; [now apply G_merge|exact Hg|exact Hi].
Qed.

Lemma union_G a b r :
  wf a -> wf b -> Forall G a -> Forall G b -> union cap a b = Some r -> Forall G r /\ wf r.
Proof.
  intros Ha Hb Ga Gb. unfold union. destruct (length b <=? length a)%nat; apply union_into_G; assumption.
Qed.
End Within.

(* The fold of intersection; A is an interval of one operand, other is the other operand *)
Section Pieces.
Variable cap : nat.
Variables self src : ivs.
Hypothesis wf_self : wf self.
Hypothesis wf_src : wf src.
Variables (A : Z * Z) (other : ivs).
Hypothesis side : In A self /\ other = src \/ In A src /\ other = self.
Hypothesis other_small : (length other < cap)%nat.

Notation G2 := (G A other).

(* a piece within A is the meet of A with an interval of the other operand *)
Lemma inter_G2 mn mx : In (mn, mx) src -> mn <= mx -> Forall G2 (inter self mn mx).
Proof.
  intros Hin Hle. apply (inter_Forall (fun X => In X self)); [|now apply Forall_forall].
  intros a b Hab H1 H2 [Hlo Hhi]. cbn [fst snd] in Hlo, Hhi.
  assert (Hle' : a <= b).
  { pose proof (wf_each self wf_self) as H. rewrite Forall_forall in H. apply (H (a, b) Hab). }
  assert (Hv : forall v, in_itv v (Z.max a mn, Z.min b mx) = true ->
                         in_itv v (a, b) = true /\ in_itv v (mn, mx) = true).
  { intros v Hv. rewrite in_itv_meet in Hv. apply andb_true_iff, Hv. }
  (* the lower end of the piece lies in (a, b), in (mn, mx) and in A *)
  destruct (Hv (Z.max a mn)) as [Pa Pm]; [apply in_itv_iff; cbn [fst snd]; lia|].
  assert (PA : in_itv (Z.max a mn) A = true) by (apply in_itv_iff; lia).
  destruct side as [[HA E]|[HA E]]; rewrite E.
  - rewrite <- (wf_unique self (a, b) A _ wf_self Hab HA Pa PA). split.
    + intros v [_ Hm]%Hv. apply mem_iff. exists (mn, mx). auto.
    + apply in_map_iff. exists (mn, mx). split; [reflexivity|exact Hin].
  - rewrite <- (wf_unique src (mn, mx) A _ wf_src Hin HA Pm PA). split.
    + intros v [Ha _]%Hv. apply mem_iff. exists (a, b). auto.
    + apply in_map_iff. exists (a, b). split; [apply Z.max_comm|exact Hab].
Qed.

Lemma inter_into_G2 l : incl l src -> wf l -> forall acc r,
  wf acc -> Forall G2 acc -> inter_into cap self acc l = Some r -> Forall G2 r /\ wf r.
Proof.
  induction l as [|[mn mx] t IH]; intros Hsub Hwl acc r Hw Hg; cbn [inter_into].
  - intros [= <-]. split; assumption.
  - destruct Hwl as (Hle & _ & Hwt). rewrite intersection_interval_eq by exact Hle. cbn [obind].
    assert (Hi : wf (inter self mn mx)) by now apply inter_wf.
    destruct (union cap acc _) as [acc'|] eqn:Eu; [|discriminate]. cbn [obind].
    apply (union_G cap A other other_small) in Eu as [Ga Wa]; [|exact Hw|apply simplify_wf, Hi|exact Hg|].
    + apply IH; auto. intros B HB. apply Hsub. right. exact HB.
    + apply simplify_G; [exact other_small|exact Hi|]. apply inter_G2; [apply Hsub; left; reflexivity|exact Hle].
Qed.

Lemma inter_into_within r v :
  inter_into cap self [] src = Some r -> In A r -> in_itv v A = true -> mem v other = true.
Proof.
  intros Er HA Av.
  destruct (inter_into_G2 src (incl_refl _) wf_src [] r I (Forall_nil _) Er) as [Hg _].
  rewrite Forall_forall in Hg. apply (Hg A HA); [split; lia|exact Av].
Qed.
End Pieces.

(* only the right operand has to be within capacity *)
Theorem subset_test_sound cap a b : wf a -> WF cap b -> is_subset_of cap a b = Some true ->
  forall v, mem v a = true -> mem v b = true.
Proof.
  intros Hwa [Hwb Hlb] E v Hv. apply is_subset_of_true in E. unfold intersection in E.
  apply mem_iff in Hv as (A & HA & Av). destruct (length b <=? length a)%nat.
  - exact (inter_into_within cap a b Hwa Hwb A b (or_introl (conj HA eq_refl)) Hlb a v E HA Av).
  - exact (inter_into_within cap b a Hwb Hwa A b (or_intror (conj HA eq_refl)) Hlb a v E HA Av).
Qed.

Section Full.
Variable cap : nat.
Hypothesis cap_gt1 : (1 < cap)%nat.

Theorem is_subset_of_sound a b :
  WF cap a -> WF cap b -> is_subset_of cap a b = Some true ->
  forall v, mem v a = true -> mem v b = true.
Proof using cap_gt1. intros [Hwa _]. exact (subset_test_sound cap a b Hwa). Qed.
End Full.
