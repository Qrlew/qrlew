(* Towards the linear bound |pieces self src| <= |self| + |src| (C11_pieces_linear): the intervals
   of self that end at or below a window meet no later window, and a window cuts out at most one
   interval more than it uses up (inter_drop_count).  At the end, apart from this: the subset theorem of Full.v
   under an additive side condition. *)
From QV Require Import Intervals.Model Intervals.Proofs Intervals.Full.
Open Scope Z_scope.

Fixpoint drop_le (x : Z) (l : ivs) : ivs :=
  match l with
  | [] => []
  | (a, b) :: t => if b <=? x then drop_le x t else l
  end.

Lemma drop_le_length x l : (length (drop_le x l) <= length l)%nat.
Proof. induction l as [|[a b] t IH]; cbn [drop_le length]; [lia|]. destruct (b <=? x); cbn [length]; lia. Qed.

Lemma drop_le_wf x l : wf l -> wf (drop_le x l).
Proof.
  induction l as [|[a b] t IH]; intros H; cbn [drop_le]; [exact I|].
  destruct (b <=? x); [apply IH, H|exact H].
Qed.

Lemma inter_drop_le x l : forall mn mx, x < mn -> inter l mn mx = inter (drop_le x l) mn mx.
Proof.
  induction l as [|[a b] t IH]; intros mn mx Hx; cbn [drop_le inter]; [reflexivity|].
  destruct (Z.leb_spec b x) as [E|E]; [|reflexivity].
  destruct (Z.ltb_spec b mn); [apply IH, Hx|lia].
Qed.

Lemma pieces_drop_le x l src : Forall (fun i => x < fst i) src -> pieces l src = pieces (drop_le x l) src.
Proof.
  induction 1 as [|[mn mx] t Hx _ IH]; cbn [pieces]; [reflexivity|].
  rewrite IH, (inter_drop_le x l mn mx Hx). reflexivity.
Qed.

Lemma inter_above l mn mx : wf l -> lo_gt mx l -> mn <= mx -> inter l mn mx = [].
Proof.
  destruct l as [|[a b] t]; [reflexivity|]. intros (Hab & _) Hl Hle. cbn [lo_gt] in Hl. cbn [inter].
  destruct (Z.ltb_spec b mn); [lia|]. destruct (Z.ltb_spec mx a); [reflexivity|lia].
Qed.

Lemma inter_drop_count l : forall mn mx, wf l -> mn <= mx ->
  (length (inter l mn mx) + length (drop_le mx l) <= length l + 1)%nat.
Proof.
  induction l as [|[a b] t IH]; intros mn mx Hw Hle; cbn [inter drop_le length]; [lia|].
  destruct Hw as (Hab & Hlt & Hw). specialize (IH mn mx Hw Hle).
  destruct (Z.ltb_spec b mn); [|destruct (Z.ltb_spec mx a)]; destruct (Z.leb_spec b mx); cbn [length]; try lia.
  rewrite (inter_above t mn mx Hw); [cbn [length]; lia| |exact Hle]. apply (lo_gt_trans mx b); [lia|exact Hlt].
Qed.

Section Add.
Variable cap : nat.
Hypothesis cap_gt1 : (1 < cap)%nat.

Theorem is_subset_of_sound_additive a b :
  WF cap a -> WF cap b -> (length a + length b < cap)%nat ->
  is_subset_of cap a b = Some true -> forall v, mem v a = true -> mem v b = true.
Proof using cap_gt1. intros Ha Hb _. exact (is_subset_of_sound cap cap_gt1 a b Ha Hb). Qed.

End Add.
