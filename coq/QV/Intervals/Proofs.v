(* Invariants and soundness of the interval-set algebra (C11, interval level). *)
From QV Require Import Intervals.Model ListFacts.
Open Scope Z_scope.

(* well-formed: sorted, pairwise disjoint, lo <= hi *)

Definition lo_gt (x : Z) (l : ivs) : Prop :=
  match l with [] => True | (a, _) :: _ => x < a end.

Fixpoint wf (l : ivs) : Prop :=
  match l with
  | [] => True
  | (a, b) :: t => a <= b /\ lo_gt b t /\ wf t
  end.

Fixpoint wfb (l : ivs) : bool :=
  match l with
  | [] => true
  | (a, b) :: t =>
      (a <=? b) && (match t with [] => true | (a', _) :: _ => b <? a' end) && wfb t
  end.

Lemma wfb_wf l : wfb l = true <-> wf l.
Proof.
  induction l as [|[a b] t IH]; cbn [wfb wf]; [tauto|].
  rewrite !andb_true_iff, IH. destruct t as [|[a' b'] t']; cbn [lo_gt].
  - rewrite Z.leb_le. tauto.
  - rewrite Z.leb_le, Z.ltb_lt. tauto.
Qed.

Definition WF (cap : nat) (l : ivs) : Prop := wf l /\ (length l < cap)%nat.

Lemma in_itv_iff v i : in_itv v i = true <-> fst i <= v <= snd i.
Proof. unfold in_itv. lia. Qed.

Lemma in_itv_empty v lo hi : hi < lo -> in_itv v (lo, hi) = false.
Proof. unfold in_itv; cbn [fst snd]. lia. Qed.

Lemma mem_cons v i l : mem v (i :: l) = in_itv v i || mem v l.
Proof. reflexivity. Qed.

Lemma mem_app v l l' : mem v (l ++ l') = mem v l || mem v l'.
Proof. apply existsb_app. Qed.

Lemma mem_iff v l : mem v l = true <-> exists i, In i l /\ in_itv v i = true.
Proof. apply existsb_exists. Qed.

Lemma mem_single v lo hi : mem v [(lo, hi)] = true <-> lo <= v <= hi.
Proof. cbn [mem existsb]. rewrite orb_false_r. apply in_itv_iff. Qed.

Lemma in_itv_merge v a b mn mx : mn <= b -> a <= mx ->
  in_itv v (Z.min a mn, Z.max b mx) = in_itv v (a, b) || in_itv v (mn, mx).
Proof. unfold in_itv; cbn [fst snd]. lia. Qed.

Lemma in_itv_meet v a b mn mx :
  in_itv v (Z.max a mn, Z.min b mx) = in_itv v (a, b) && in_itv v (mn, mx).
Proof. unfold in_itv; cbn [fst snd]. lia. Qed.

Lemma lo_gt_trans x y l : x <= y -> lo_gt y l -> lo_gt x l.
Proof. destruct l as [|[a b] t]; cbn; lia. Qed.

Lemma wf_each l : wf l -> Forall (fun i => fst i <= snd i) l.
Proof. induction l as [|[a b] t IH]; intros Hw; constructor; [apply Hw|apply IH, Hw]. Qed.

Lemma wf_lo_gt_all x l : wf l -> lo_gt x l -> Forall (fun i => x < fst i) l.
Proof.
  revert x. induction l as [|[a b] t IH]; intros x Hw Hl; constructor; [exact Hl|].
  destruct Hw as (Hab & Hlt & Hw). cbn [lo_gt] in Hl.
  apply IH; [exact Hw|]. apply (lo_gt_trans x b); [lia|exact Hlt].
Qed.

Lemma Forall_lo_gt x l : Forall (fun i => x < fst i) l -> lo_gt x l.
Proof. intros [|[a b] t H _]; [exact I|exact H]. Qed.

Lemma mem_lo_gt x l v : wf l -> lo_gt x l -> mem v l = true -> x < v.
Proof.
  intros Hw Hl Hm. apply mem_iff in Hm as (i & Hi & Hv). apply in_itv_iff in Hv.
  pose proof (wf_lo_gt_all x l Hw Hl) as F. rewrite Forall_forall in F. specialize (F i Hi). lia.
Qed.

Lemma mem_false_below l v : wf l -> lo_gt v l -> mem v l = false.
Proof.
  intros Hw Hl. destruct (mem v l) eqn:E; [|reflexivity].
  pose proof (mem_lo_gt v l v Hw Hl E). lia.
Qed.

Lemma wf_point r v : wf r -> (forall w, mem w r = true -> w = v) -> r = [] \/ r = [(v, v)].
Proof.
  intros Hw H.
  assert (Hin : forall i w, In i r -> fst i <= w <= snd i -> w = v).
  { intros i w Hi Hv. apply H, mem_iff. exists i. split; [exact Hi|apply in_itv_iff, Hv]. }
  destruct r as [|[c d] t]; [left; reflexivity|right]. destruct Hw as (Hcd & Hlt & Hw).
  pose proof (Hin (c, d) c (in_eq _ _)) as Hc. pose proof (Hin (c, d) d (in_eq _ _)) as Hd.
  cbn [fst snd] in Hc, Hd. destruct t as [|[c' d'] t].
  - f_equal. f_equal; lia.
  - pose proof (Hin (c', d') c' (in_cons _ _ _ (in_eq _ _))) as Hc'.
    cbn [lo_gt fst snd] in Hlt, Hc'. destruct Hw as (Hcd' & _). lia.
Qed.

Lemma uni_Forall (P : itv -> Prop) :
  (forall a b mn mx, P (a, b) -> P (mn, mx) -> mn <= b -> a <= mx -> P (Z.min a mn, Z.max b mx)) ->
  forall l mn mx, Forall P l -> P (mn, mx) -> Forall P (uni l mn mx).
Proof.
  intros Hmerge. induction l as [|[a b] t IH]; intros mn mx Hl Hp; cbn [uni]; [auto|].
  inversion Hl as [|? ? Hab Ht].
  destruct (Z.ltb_spec b mn) as [E1|E1]; [auto|]. destruct (Z.ltb_spec mx a) as [E2|E2]; [auto|].
  apply IH; [exact Ht|]. apply Hmerge; assumption.
Qed.

Lemma uni_mem v l : forall mn mx, mem v (uni l mn mx) = mem v l || in_itv v (mn, mx).
Proof.
  induction l as [|[a b] t IH]; intros mn mx; cbn [uni]; [apply orb_false_r|].
  destruct (Z.ltb_spec b mn) as [E1|E1]; [|destruct (Z.ltb_spec mx a) as [E2|E2]]; rewrite ?mem_cons, ?IH.
  - apply orb_assoc.
  - apply orb_comm.
  - rewrite in_itv_merge by assumption. destruct (in_itv v (a, b)), (mem v t); reflexivity.
Qed.

Lemma uni_length l : forall mn mx, (length (uni l mn mx) <= S (length l))%nat.
Proof.
  induction l as [|[a b] t IH]; intros mn mx; cbn [uni length]; [lia|].
  destruct (b <? mn); [|destruct (mx <? a)]; cbn [length]; try lia.
  - specialize (IH mn mx). lia.
  - specialize (IH (Z.min a mn) (Z.max b mx)). lia.
Qed.

Lemma uni_lo_gt x l mn mx : wf l -> lo_gt x l -> x < mn -> lo_gt x (uni l mn mx).
Proof.
  intros Hw Hl Hx. apply Forall_lo_gt, uni_Forall; [cbn; lia|apply wf_lo_gt_all; assumption|exact Hx].
Qed.

Lemma uni_wf l : forall mn mx, wf l -> mn <= mx -> wf (uni l mn mx).
Proof.
  induction l as [|[a b] t IH]; intros mn mx Hw Hle; cbn [uni]; [cbn; auto|].
  destruct Hw as (Hab & Hlt & Hw).
  destruct (Z.ltb_spec b mn) as [E1|E1]; [|destruct (Z.ltb_spec mx a) as [E2|E2]].
  - split; [exact Hab|]. split; [apply uni_lo_gt; assumption|apply IH; assumption].
  - cbn [wf lo_gt]. auto.
  - apply IH; [exact Hw|lia].
Qed.

Lemma last_cons {A} (t : list A) : forall x d, last (x :: t) d = last t x.
Proof.
  induction t as [|y t IH]; intros x d; [reflexivity|].
  change (last (x :: y :: t) d) with (last (y :: t) d). rewrite !IH. reflexivity.
Qed.

Lemma wf_span t : forall a b, wf ((a, b) :: t) -> forall i, In i ((a, b) :: t) ->
  a <= fst i /\ snd i <= snd (last t (a, b)).
Proof.
  induction t as [|[a' b'] t IH]; intros a b (Hab & Hlt & Hw) i Hi.
  - destruct Hi as [<- | []]. cbn. lia.
  - rewrite last_cons. cbn [lo_gt] in Hlt. pose proof (IH a' b' Hw) as S. destruct Hw as (Hab' & _).
    destruct Hi as [<- | Hi].
    + specialize (S _ (in_eq _ _)). cbn [fst snd] in *. lia.
    + specialize (S i Hi). lia.
Qed.

Lemma hull_wf l : wf l -> wf (hull l).
Proof.
  destruct l as [|[a b] t]; intros Hw; [exact I|].
  pose proof (wf_span t a b Hw _ (in_eq _ _)). cbn in *. lia.
Qed.

Lemma hull_superset l v : wf l -> mem v l = true -> mem v (hull l) = true.
Proof.
  destruct l as [|[a b] t]; intros Hw Hv; [exact Hv|].
  apply mem_iff in Hv as (i & Hi & Hv). apply in_itv_iff in Hv.
  apply mem_single. pose proof (wf_span t a b Hw i Hi). lia.
Qed.

Lemma hull_length l : (length (hull l) <= 1)%nat.
Proof. destruct l as [|[a b] t]; cbn; lia. Qed.

Lemma simplify_wf cap l : wf l -> wf (simplify cap l).
Proof. unfold simplify. destruct (length l <? cap)%nat; auto using hull_wf. Qed.

Lemma simplify_superset cap l v : wf l -> mem v l = true -> mem v (simplify cap l) = true.
Proof. unfold simplify. destruct (length l <? cap)%nat; auto using hull_superset. Qed.

Lemma simplify_length cap l : (1 < cap)%nat -> (length (simplify cap l) < cap)%nat.
Proof.
  intros Hc. unfold simplify. destruct (Nat.ltb_spec (length l) cap); [assumption|].
  pose proof (hull_length l). lia.
Qed.

Lemma simplify_id cap l : (length l < cap)%nat -> simplify cap l = l.
Proof. intros H. unfold simplify. destruct (Nat.ltb_spec (length l) cap); [reflexivity|lia]. Qed.

Lemma simplify_WF cap l : (1 < cap)%nat -> wf l -> WF cap (simplify cap l).
Proof. intros Hc Hw. split; [apply simplify_wf, Hw|apply simplify_length, Hc]. Qed.

Lemma inter_length l : forall mn mx, (length (inter l mn mx) <= length l)%nat.
Proof.
  induction l as [|[a b] t IH]; intros mn mx; cbn [inter length]; [lia|]. specialize (IH mn mx).
  destruct (b <? mn); [|destruct (mx <? a)]; cbn [length]; lia.
Qed.

Lemma inter_mem v l : forall mn mx, wf l -> mem v (inter l mn mx) = mem v l && in_itv v (mn, mx).
Proof.
  intros mn mx. induction l as [|[a b] t IH]; [reflexivity|]. intros (Hab & Hlt & Hw).
  (* the head contributes its meet with the window, which is empty when either test of inter succeeds *)
  cbn [inter]. rewrite mem_cons, andb_orb_distrib_l, <- in_itv_meet.
  destruct (Z.ltb_spec b mn); [|destruct (Z.ltb_spec mx a)].
  - rewrite in_itv_empty by lia. apply IH, Hw.
  - (* nothing of a well-formed list starting above mx meets the window *)
    rewrite in_itv_empty by lia. destruct (in_itv v (mn, mx)) eqn:E; [|now rewrite andb_false_r].
    apply in_itv_iff in E. cbn [fst snd] in E.
    rewrite (mem_false_below t); [reflexivity|exact Hw|]. apply lo_gt_trans with b; [lia|exact Hlt].
  - rewrite mem_cons, IH by exact Hw. reflexivity.
Qed.

Lemma inter_Forall (P Q : itv -> Prop) mn mx :
  (forall a b, P (a, b) -> mn <= b -> a <= mx -> Q (Z.max a mn, Z.min b mx)) ->
  forall l, Forall P l -> Forall Q (inter l mn mx).
Proof.
  intros Hmeet. induction 1 as [|[a b] t Hab _ IH]; cbn [inter]; [constructor|].
  destruct (Z.ltb_spec b mn) as [E1|E1]; [exact IH|].
  destruct (Z.ltb_spec mx a) as [E2|E2]; constructor; [|exact IH].
  apply Hmeet; assumption.
Qed.

Lemma inter_lo_gt x l mn mx : wf l -> lo_gt x l -> lo_gt x (inter l mn mx).
Proof.
  intros Hw Hl. apply Forall_lo_gt, (inter_Forall (fun i => x < fst i)); [cbn; lia|now apply wf_lo_gt_all].
Qed.

Lemma inter_wf l : forall mn mx, wf l -> mn <= mx -> wf (inter l mn mx).
Proof.
  induction l as [|[a b] t IH]; intros mn mx Hw Hle; cbn [inter]; [exact I|].
  destruct Hw as (Hab & Hlt & Hw).
  destruct (Z.ltb_spec b mn) as [E1|E1]; [auto|]. destruct (Z.ltb_spec mx a) as [E2|E2]; [exact I|].
  split; [lia|]. split; [|auto].
  apply (lo_gt_trans _ b); [lia|]. apply inter_lo_gt; assumption.
Qed.

(* The exact pieces the fold of intersection unions together *)
Fixpoint pieces (self src : ivs) : ivs :=
  match src with
  | [] => []
  | (mn, mx) :: t => inter self mn mx ++ pieces self t
  end.

(* pieces as the code orders its operands *)
Definition xpieces (a b : ivs) : ivs :=
  if (length b <=? length a)%nat then pieces a b else pieces b a.

Lemma pieces_length_mul self src : (length (pieces self src) <= length self * length src)%nat.
Proof.
  induction src as [|[mn mx] t IH]; cbn [pieces length]; [lia|].
  rewrite app_length. pose proof (inter_length self mn mx). nia.
Qed.

Lemma xpieces_length_mul a b : (length (xpieces a b) <= length a * length b)%nat.
Proof.
  unfold xpieces. destruct (length b <=? length a)%nat; [|rewrite Nat.mul_comm]; apply pieces_length_mul.
Qed.

Lemma union_interval_eq cap l mn mx : mn <= mx ->
  union_interval cap l mn mx = Some (simplify cap (uni l mn mx)).
Proof. intros H. unfold union_interval. destruct (Z.leb_spec mn mx); [reflexivity|lia]. Qed.

Lemma union_interval_inv cap l mn mx r : union_interval cap l mn mx = Some r ->
  mn <= mx /\ r = simplify cap (uni l mn mx).
Proof. unfold union_interval. destruct (Z.leb_spec mn mx); [intros [= <-]; auto|discriminate]. Qed.

Lemma intersection_interval_eq cap l mn mx : mn <= mx ->
  intersection_interval cap l mn mx = Some (simplify cap (inter l mn mx)).
Proof. intros H. unfold intersection_interval. destruct (Z.leb_spec mn mx); [reflexivity|lia]. Qed.

Lemma intersection_interval_inv cap l mn mx r : intersection_interval cap l mn mx = Some r ->
  mn <= mx /\ r = simplify cap (inter l mn mx).
Proof. unfold intersection_interval. destruct (Z.leb_spec mn mx); [intros [= <-]; auto|discriminate]. Qed.

Lemma itv_eqb_eq i j : itv_eqb i j = true <-> i = j.
Proof.
  destruct i, j. unfold itv_eqb; cbn [fst snd]. rewrite andb_true_iff, !Z.eqb_eq.
  split; [intros [-> ->]; reflexivity|intros [= -> ->]; auto].
Qed.

Lemma ivs_eqb_iff x : forall y, ivs_eqb x y = true <-> x = y.
Proof. exact (list_eqb_by_eq itv_eqb itv_eqb_eq x). Qed.

Lemma is_subset_of_true cap a b : is_subset_of cap a b = Some true <-> intersection cap a b = Some a.
Proof.
  unfold is_subset_of. destruct (intersection cap a b) as [r|]; cbn [obind]; [|split; discriminate].
  split; [intros [= E]; apply ivs_eqb_iff in E; now subst|intros [= ->]; f_equal; now apply ivs_eqb_iff].
Qed.

Definition all_mem (v : Z) (l : ivs) := mem v l.

Section Cap.
Variable cap : nat.
(* the pinned results of the section all take this hypothesis, also those whose proof does not need it
   ([Proof using cap_gt1]): Props instantiates them alike, with CAP and cap_ok *)
Hypothesis cap_gt1 : (1 < cap)%nat.

Lemma union_interval_total l mn mx : mn <= mx -> exists r, union_interval cap l mn mx = Some r.
Proof using cap_gt1. intros H. rewrite union_interval_eq by exact H. eauto. Qed.

Lemma union_interval_WF l mn mx r :
  wf l -> union_interval cap l mn mx = Some r -> WF cap r.
Proof.
  intros Hw E. apply union_interval_inv in E as [Hle ->]. apply simplify_WF, uni_wf; assumption.
Qed.

Lemma union_interval_sound l mn mx r v :
  wf l -> union_interval cap l mn mx = Some r ->
  mem v l || in_itv v (mn, mx) = true -> mem v r = true.
Proof using cap_gt1.
  intros Hw E Hv. apply union_interval_inv in E as [Hle ->].
  apply simplify_superset; [apply uni_wf; assumption|]. now rewrite uni_mem.
Qed.

Lemma union_interval_exact l mn mx r v :
  wf l -> (S (length l) < cap)%nat -> union_interval cap l mn mx = Some r ->
  mem v r = mem v l || in_itv v (mn, mx).
Proof using cap_gt1.
  intros _ Hl E. apply union_interval_inv in E as [_ ->].
  pose proof (uni_length l mn mx). rewrite simplify_id by lia. apply uni_mem.
Qed.

Lemma intersection_interval_total l mn mx : mn <= mx -> exists r, intersection_interval cap l mn mx = Some r.
Proof using cap_gt1. intros H. rewrite intersection_interval_eq by exact H. eauto. Qed.

Lemma intersection_interval_WF l mn mx r :
  wf l -> intersection_interval cap l mn mx = Some r -> WF cap r.
Proof.
  intros Hw E. apply intersection_interval_inv in E as [Hle ->]. apply simplify_WF, inter_wf; assumption.
Qed.

Lemma intersection_interval_sound l mn mx r v :
  wf l -> intersection_interval cap l mn mx = Some r ->
  mem v l && in_itv v (mn, mx) = true -> mem v r = true.
Proof.
  intros Hw E Hv. apply intersection_interval_inv in E as [Hle ->].
  apply simplify_superset; [apply inter_wf; assumption|]. now rewrite inter_mem.
Qed.

Lemma intersection_interval_exact l mn mx r :
  WF cap l -> intersection_interval cap l mn mx = Some r ->
  r = inter l mn mx.
Proof.
  intros [_ Hl] E. apply intersection_interval_inv in E as [_ ->].
  apply simplify_id, (Nat.le_lt_trans _ (length l)); [apply inter_length|exact Hl].
Qed.

Lemma WF_nil : WF cap [].
Proof. split; cbn; [exact I|lia]. Qed.

Lemma WF_single lo hi : lo <= hi -> WF cap [(lo, hi)].
Proof. intros H. split; cbn; lia. Qed.

(* The folds are exact as long as the number of intervals that could arise (one more per interval folded
   in) is below the capacity, since no list is then replaced by its hull. *)

(* the folded operand may come in any order: only lo <= hi of each interval matters *)
Lemma union_into_spec src : forall acc, WF cap acc -> Forall (fun i => fst i <= snd i) src ->
  exists r, union_into cap acc src = Some r /\ WF cap r /\
    (forall v, mem v acc || mem v src = true -> mem v r = true) /\
    ((length acc + length src < cap)%nat ->
     (length r <= length acc + length src)%nat /\ forall v, mem v r = mem v acc || mem v src).
Proof.
  induction src as [|[mn mx] t IH]; intros acc Ha Hs; cbn [union_into length].
  - exists acc. split; [reflexivity|]. split; [exact Ha|]. split.
    + intros v. now rewrite orb_false_r.
    + intros _. split; [lia|]. intros v. now rewrite orb_false_r.
  - inversion Hs as [|? ? Hle Ht]. rewrite union_interval_eq by exact Hle. cbn [obind].
    assert (Hu : wf (uni acc mn mx)) by (apply uni_wf; [apply Ha|exact Hle]).
    destruct (IH _ (simplify_WF cap _ cap_gt1 Hu) Ht) as (r & Er & W & M & X).
    exists r. split; [exact Er|]. split; [exact W|]. split.
    + intros v Hv. apply M. rewrite mem_cons, orb_assoc, <- uni_mem in Hv.
      apply orb_true_iff in Hv as [Hv|Hv]; [|rewrite Hv; apply orb_true_r].
      now rewrite simplify_superset.
    + intros Hl. pose proof (uni_length acc mn mx) as Hn.
      rewrite simplify_id in X by lia. destruct X as [N Mx]; [lia|].
      split; [lia|]. intros v. rewrite Mx, uni_mem, mem_cons. symmetry. apply orb_assoc.
Qed.

Lemma from_intervals_sound l : Forall (fun i => fst i <= snd i) l ->
  exists r, from_intervals cap l = Some r /\ WF cap r /\ (forall v, mem v l = true -> mem v r = true).
Proof. intros Hl. destruct (union_into_spec l [] WF_nil Hl) as (r & E & W & M & _). eauto. Qed.

Lemma union_spec a b : WF cap a -> WF cap b ->
  exists r, union cap a b = Some r /\ WF cap r /\
    (forall v, mem v a || mem v b = true -> mem v r = true) /\
    ((length a + length b < cap)%nat ->
     (length r <= length a + length b)%nat /\ forall v, mem v r = mem v a || mem v b).
Proof.
  intros Ha Hb. unfold union. destruct (length b <=? length a)%nat.
  - apply union_into_spec; [exact Ha|apply wf_each, Hb].
  - rewrite (Nat.add_comm (length a)). setoid_rewrite (orb_comm (mem _ a)).
    apply union_into_spec; [exact Hb|apply wf_each, Ha].
Qed.

Theorem union_sound a b : WF cap a -> WF cap b ->
  exists r, union cap a b = Some r /\ WF cap r /\
    (forall v, mem v a || mem v b = true -> mem v r = true).
Proof. intros Ha Hb. destruct (union_spec a b Ha Hb) as (r & E & W & M & _). eauto. Qed.

(* the same for a client that has the result at hand *)
Lemma union_Some a b r : WF cap a -> WF cap b -> union cap a b = Some r ->
  WF cap r /\ forall v, mem v a = true \/ mem v b = true -> mem v r = true.
Proof.
  intros Ha Hb E. destruct (union_sound a b Ha Hb) as (r' & E' & W & M).
  rewrite E in E'. injection E' as <-. split; [exact W|]. intros v Hv. apply M, orb_true_iff, Hv.
Qed.

Lemma inter_into_spec self src : forall acc, WF cap self -> WF cap acc -> wf src ->
  exists r, inter_into cap self acc src = Some r /\ WF cap r /\
    (forall v, mem v acc || (mem v self && mem v src) = true -> mem v r = true) /\
    ((length acc + length (pieces self src) < cap)%nat ->
     (length r <= length acc + length (pieces self src))%nat /\
     forall v, mem v r = mem v acc || (mem v self && mem v src)).
Proof.
  induction src as [|[mn mx] t IH]; intros acc Hself Hacc Hs; cbn [inter_into pieces length].
  - exists acc. split; [reflexivity|]. split; [exact Hacc|]. split.
    + intros v. now rewrite andb_false_r, orb_false_r.
    + intros _. split; [lia|]. intros v. now rewrite andb_false_r, orb_false_r.
  - destruct Hs as (Hle & _ & Ht). rewrite intersection_interval_eq by exact Hle. cbn [obind].
    assert (Hi : wf (inter self mn mx)) by (apply inter_wf; [apply Hself|exact Hle]).
    destruct (union_spec acc _ Hacc (simplify_WF cap _ cap_gt1 Hi)) as (a' & -> & Wa & Ma & Xa). cbn [obind].
    destruct (IH a' Hself Wa Ht) as (r & Er & W & M & X).
    exists r. split; [exact Er|]. split; [exact W|]. split.
    + intros v Hv. apply M. rewrite mem_cons, andb_orb_distrib_r, orb_assoc in Hv.
      apply orb_true_iff in Hv as [Hv|Hv]; [|rewrite Hv; apply orb_true_r].
      rewrite Ma; [reflexivity|]. apply orb_true_iff in Hv as [Hv|Hv]; [now rewrite Hv|].
      rewrite simplify_superset; [apply orb_true_r|exact Hi|]. rewrite inter_mem; [exact Hv|apply Hself].
    + rewrite app_length. intros Hl.
      rewrite simplify_id in Xa by lia. destruct Xa as [Na Mxa]; [lia|]. destruct X as [N Mx]; [lia|].
      split; [lia|]. intros v. rewrite Mx, Mxa, inter_mem, mem_cons by apply Hself.
      destruct (mem v acc), (mem v self); reflexivity.
Qed.

Lemma intersection_spec a b : WF cap a -> WF cap b ->
  exists r, intersection cap a b = Some r /\ WF cap r /\
    (forall v, mem v a && mem v b = true -> mem v r = true) /\
    ((length (xpieces a b) < cap)%nat ->
     (length r <= length (xpieces a b))%nat /\ forall v, mem v r = mem v a && mem v b).
Proof.
  intros Ha Hb. unfold intersection, xpieces. destruct (length b <=? length a)%nat.
  - exact (inter_into_spec a b [] Ha WF_nil (proj1 Hb)).
  - setoid_rewrite (andb_comm (mem _ a)). exact (inter_into_spec b a [] Hb WF_nil (proj1 Ha)).
Qed.

Theorem intersection_sound a b : WF cap a -> WF cap b ->
  exists r, intersection cap a b = Some r /\ WF cap r /\
    (forall v, mem v a && mem v b = true -> mem v r = true).
Proof. intros Ha Hb. destruct (intersection_spec a b Ha Hb) as (r & E & W & M & _). eauto. Qed.

Lemma intersection_Some a b r : WF cap a -> WF cap b -> intersection cap a b = Some r ->
  WF cap r /\ forall v, mem v a = true -> mem v b = true -> mem v r = true.
Proof.
  intros Ha Hb E. destruct (intersection_sound a b Ha Hb) as (r' & E' & W & M).
  rewrite E in E'. injection E' as <-. split; [exact W|]. intros v H1 H2. apply M. now rewrite H1.
Qed.

(* a negative answer says that the computed intersection is not the left operand *)
Theorem is_subset_of_complete_partial a b :
  WF cap a -> WF cap b -> (length (xpieces a b) < cap)%nat ->
  is_subset_of cap a b = Some false ->
  exists r, intersection cap a b = Some r /\ r <> a.
Proof using cap_gt1.
  intros _ _ _. unfold is_subset_of. destruct (intersection cap a b) as [r|]; [|discriminate].
  intros [= E]. exists r. split; [reflexivity|]. intros ->.
  rewrite (proj2 (ivs_eqb_iff a a) eq_refl) in E. discriminate.
Qed.

(* contains is exact: a singleton against a set within capacity never merges *)
Theorem contains_iff a v : WF cap a -> contains cap a v = Some (mem v a).
Proof using cap_gt1.
  intros Ha. unfold contains, is_subset_of.
  pose proof (xpieces_length_mul [(v, v)] a) as Hl. cbn [length] in Hl.
  destruct (intersection_spec _ a (WF_single v v (Z.le_refl v)) Ha) as (r & -> & [W _] & _ & X).
  destruct X as [_ M]; [destruct Ha; lia|]. cbn [obind]. f_equal.
  (* r is well formed and holds v if a does, and nothing else *)
  assert (Hr : r = [] \/ r = [(v, v)]).
  { apply wf_point; [exact W|]. intros w Hw. rewrite M in Hw.
    apply andb_true_iff in Hw as [Hw _]. apply mem_single in Hw. lia. }
  assert (Hv : mem v [(v, v)] = true) by (apply mem_single; lia).
  specialize (M v). rewrite Hv in M. cbn [andb] in M. rewrite <- M.
  destruct Hr as [-> | ->]; [reflexivity|]. rewrite Hv. now apply ivs_eqb_iff.
Qed.

Definition op_ok (o : op) : Prop :=
  match o with
  | UnionI mn mx | InterI mn mx => mn <= mx
  | UnionS t | InterS t => WF cap t
  end.

Lemma step_WF s o : WF cap s -> op_ok o -> exists s', step cap s o = Some s' /\ WF cap s'.
Proof.
  intros Hs Ho. destruct o as [mn mx|mn mx|t|t]; cbn [step op_ok] in *.
  - destruct (union_interval_total s mn mx Ho) as [r Er]. exists r. split; [exact Er|].
    exact (union_interval_WF s mn mx r (proj1 Hs) Er).
  - destruct (intersection_interval_total s mn mx Ho) as [r Er]. exists r. split; [exact Er|].
    exact (intersection_interval_WF s mn mx r (proj1 Hs) Er).
  - destruct (union_sound s t Hs Ho) as (r & Er & W & _). eauto.
  - destruct (intersection_sound s t Hs Ho) as (r & Er & W & _). eauto.
Qed.

(* every history of well-formed operations, of any length, crossing the capacity or
   not, runs without panic and ends in a sorted, disjoint set within capacity *)
Theorem run_WF ops : forall s, WF cap s -> Forall op_ok ops ->
  exists s', run cap s ops = Some s' /\ WF cap s'.
Proof.
  induction ops as [|o t IH]; intros s Hs Ho; cbn [run]; [eauto|].
  inversion Ho as [|? ? Ho1 Ho2].
  destruct (step_WF s o Hs Ho1) as (s' & Es & Ws). rewrite Es. cbn [obind]. auto.
Qed.

End Cap.
