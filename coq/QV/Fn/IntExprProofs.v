From QV Require Import Intervals.Model Intervals.Proofs Fn.IntExpr.
Open Scope Z_scope.

Lemma Forall2_nth_error {A B} (R : A -> B -> Prop) l l' n x :
  Forall2 R l l' -> nth_error l n = Some x -> exists y, nth_error l' n = Some y /\ R x y.
Proof.
  intros H. revert n. induction H as [|a b l l' Hab _ IH]; intros [|n]; cbn; try discriminate; [|apply IH].
  intros [= <-]. eauto.
Qed.

Definition mono_on (g : Z -> Z) (a b : Z) : Prop :=
  (forall x y, a <= x -> x <= y -> y <= b -> g x <= g y) \/
  (forall x y, a <= x -> x <= y -> y <= b -> g y <= g x).

Lemma mono_bounded g a b lo hi : mono_on g a b -> lo <= g a <= hi -> lo <= g b <= hi ->
  forall v, a <= v <= b -> lo <= g v <= hi.
Proof.
  intros [H|H] Ha Hb v Hv;
    pose proof (H a v ltac:(lia) ltac:(lia) ltac:(lia)); pose proof (H v b ltac:(lia) ltac:(lia) ltac:(lia)); lia.
Qed.

(* a bound for the four corner values bounds the values on the whole box: first along the two
   edges x = a1 and x = a2, then across.  The direction in one coordinate may depend on the other
   coordinate, which is how x * y is covered on a box that contains 0. *)
Lemma box_bounded (f : Z -> Z -> Z) a1 a2 b1 b2 lo hi :
  (forall y0, b1 <= y0 <= b2 -> mono_on (fun x0 => f x0 y0) a1 a2) ->
  (forall x0, a1 <= x0 <= a2 -> mono_on (f x0) b1 b2) ->
  lo <= f a1 b1 <= hi -> lo <= f a1 b2 <= hi -> lo <= f a2 b1 <= hi -> lo <= f a2 b2 <= hi ->
  forall x y, a1 <= x <= a2 -> b1 <= y <= b2 -> lo <= f x y <= hi.
Proof.
  intros Hx Hy H11 H12 H21 H22 x y Hxr Hyr.
  apply (mono_bounded (fun x0 => f x0 y) a1 a2); auto.
  - apply (mono_bounded (f a1) b1 b2); auto. apply Hy. lia.
  - apply (mono_bounded (f a2) b1 b2); auto. apply Hy. lia.
Qed.

Lemma minl_maxl_bound d l : forall v, In v (d :: l) -> minl d l <= v <= maxl d l.
Proof.
  induction l as [|u t IH]; cbn [minl maxl]; intros v Hv.
  - destruct Hv as [<-|[]]. split; reflexivity.
  - rewrite Z.min_le_iff, Z.max_le_iff.
    assert (Hv' : u = v \/ In v (d :: t)) by (cbn [In] in *; tauto).
    destruct Hv' as [->|Hv']; [split; left; reflexivity|split; right; apply IH, Hv'].
Qed.

Lemma minl_le_maxl d l : minl d l <= maxl d l.
Proof. pose proof (minl_maxl_bound d l d (or_introl eq_refl)). lia. Qed.

Definition in_i64 (z : Z) : Prop := i64_min <= z <= i64_max.

Lemma i64_bounds : i64_min < 0 < i64_max.
Proof. split; reflexivity. Qed.

Lemma sat_in z : in_i64 (sat z).
Proof. pose proof i64_bounds. unfold in_i64, sat. lia. Qed.

Lemma sat_mono x y : x <= y -> sat x <= sat y.
Proof. unfold sat. lia. Qed.

Lemma b2z_mono b c : (b = true -> c = true) -> b2z b <= b2z c.
Proof. intros H. destruct b; [rewrite H by reflexivity|destruct c]; cbn; lia. Qed.

(* each function of the table is monotone in either argument on all of Z, whatever the other one is *)
Lemma bin_mono_l op y0 a b : mono_on (fun x0 => bin_value op x0 y0) a b.
Proof.
  unfold mono_on. destruct op; cbn [bin_value].
  - left. intros x y _ H _. apply sat_mono. lia.
  - left. intros x y _ H _. apply sat_mono. lia.
  - destruct (Z.le_ge_cases 0 y0) as [Hs|Hs].
    + left. intros x y _ H _. apply sat_mono, Z.mul_le_mono_nonneg_r; lia.
    + right. intros x y _ H _. apply sat_mono, Z.mul_le_mono_nonpos_r; lia.
  - left. lia.
  - left. lia.
  - left. intros x y _ H _. apply b2z_mono. lia.
  - right. intros x y _ H _. apply b2z_mono. lia.
  - left. intros x y _ H _. apply b2z_mono. lia.
  - right. intros x y _ H _. apply b2z_mono. lia.
Qed.

Lemma bin_mono_r op x0 a b : mono_on (bin_value op x0) a b.
Proof.
  unfold mono_on. destruct op; cbn [bin_value].
  - left. intros x y _ H _. apply sat_mono. lia.
  - right. intros x y _ H _. apply sat_mono. lia.
  - destruct (Z.le_ge_cases 0 x0) as [Hs|Hs].
    + left. intros x y _ H _. apply sat_mono, Z.mul_le_mono_nonneg_l; lia.
    + right. intros x y _ H _. apply sat_mono, Z.mul_le_mono_nonpos_l; lia.
  - left. lia.
  - left. lia.
  - right. intros x y _ H _. apply b2z_mono. lia.
  - left. intros x y _ H _. apply b2z_mono. lia.
  - right. intros x y _ H _. apply b2z_mono. lia.
  - left. intros x y _ H _. apply b2z_mono. lia.
Qed.

Lemma box_image_sound op a b x y : in_itv x a = true -> in_itv y b = true ->
  in_itv (bin_value op x y) (box_image op a b) = true.
Proof.
  intros Hx%in_itv_iff Hy%in_itv_iff. apply in_itv_iff. unfold box_image; cbn [fst snd].
  apply (box_bounded (bin_value op) (fst a) (snd a) (fst b) (snd b)); auto using bin_mono_l, bin_mono_r;
    apply minl_maxl_bound; cbn [In]; auto.
Qed.

Lemma boxes_le op A B : Forall (fun i => fst i <= snd i) (boxes op A B).
Proof.
  apply Forall_flat_map, Forall_forall. intros b _. apply Forall_map, Forall_forall. intros a _.
  apply minl_le_maxl.
Qed.

Lemma boxes_sound op A B x y : mem x A = true -> mem y B = true -> mem (bin_value op x y) (boxes op A B) = true.
Proof.
  rewrite !mem_iff. intros (a & Ha & Hx) (b & Hb & Hy). exists (box_image op a b). split.
  - apply in_flat_map. exists b. split; [exact Hb|]. apply (in_map (fun a0 => box_image op a0 b)), Ha.
  - apply box_image_sound; assumption.
Qed.

Lemma piece_cover op x y : in_i64 x -> in_i64 y ->
  exists P Q, In (P, Q) (pieces op) /\ mem x P = true /\ mem y Q = true.
Proof.
  unfold in_i64. intros Hx Hy.
  destruct op; try (exists full, full; split; [left; reflexivity|split; apply mem_single; lia]).
  exists (if 0 <=? x then nonneg else nonpos), (if 0 <=? y then nonneg else nonpos).
  destruct (0 <=? x) eqn:Ex, (0 <=? y) eqn:Ey; (split; [cbn [pieces In]; auto|split; apply mem_single; lia]).
Qed.

Lemma bin_value_in_i64 op x y : in_i64 x -> in_i64 y -> in_i64 (bin_value op x y).
Proof.
  assert (Hb : forall b, in_i64 (b2z b)) by (pose proof i64_bounds; unfold in_i64; intros []; cbn [b2z]; lia).
  intros Hx Hy. destruct op; cbn [bin_value]; auto using sat_in; unfold in_i64 in *; lia.
Qed.

Lemma cap_ok2 : (2 < CAP)%nat. Proof. unfold CAP. lia. Qed.

Section Sound.
Variable cap : nat.
(* 2, not 1: a Boolean argument is split into its two values (enum_bool), and both must fit (arg_set_ok) *)
Hypothesis cap_gt2 : (2 < cap)%nat.
Let cap_gt1 : (1 < cap)%nat. Proof. lia. Qed.

Lemma pieces_WF op : Forall (fun p => WF cap (fst p) /\ WF cap (snd p)) (pieces op).
Proof.
  pose proof i64_bounds.
  assert (WF cap full /\ WF cap nonneg /\ WF cap nonpos) as (F & P & N)
    by (split; [|split]; apply (WF_single cap cap_gt1); lia).
  destruct op; repeat (constructor; [split; assumption|]); constructor.
Qed.

Lemma all_boxes_spec op SA SB : WF cap SA -> WF cap SB ->
  forall ps, Forall (fun p => WF cap (fst p) /\ WF cap (snd p)) ps ->
  exists l, all_boxes cap op SA SB ps = Some l /\ Forall (fun i => fst i <= snd i) l /\
    (forall P Q x y, In (P, Q) ps -> mem x SA = true -> mem y SB = true -> mem x P = true -> mem y Q = true ->
       mem (bin_value op x y) l = true).
Proof.
  intros HA HB. induction 1 as [|[P Q] t [HP HQ] _ (l & El & Fl & Ml)]; cbn [all_boxes].
  - exists []. split; [reflexivity|]. split; [constructor|]. intros P Q x y [].
  - unfold piece_boxes; cbn [fst snd].
    destruct (intersection_sound cap cap_gt1 SA P HA HP) as (A & -> & _ & MA).
    destruct (intersection_sound cap cap_gt1 SB Q HB HQ) as (B & -> & _ & MB).
    rewrite El. cbn [obind].
    exists (boxes op A B ++ l). split; [reflexivity|]. split; [apply Forall_app; auto using boxes_le|].
    intros P' Q' x y [[= <- <-]|Hq] Hx Hy Hpx Hpy; rewrite mem_app; apply orb_true_iff.
    + left. apply boxes_sound; [apply MA; now rewrite Hx, Hpx|apply MB; now rewrite Hy, Hpy].
    + right. exact (Ml P' Q' x y Hq Hx Hy Hpx Hpy).
Qed.

Theorem bin_image_spec op SA SB : WF cap SA -> WF cap SB ->
  exists T, bin_image cap op SA SB = Some T /\ WF cap T /\
    forall x y, mem x SA = true -> mem y SB = true -> in_i64 x -> in_i64 y -> mem (bin_value op x y) T = true.
Proof.
  intros HA HB. unfold bin_image.
  destruct (all_boxes_spec op SA SB HA HB (pieces op) (pieces_WF op)) as (l & -> & Fl & Ml). cbn [obind].
  destruct (from_intervals_sound cap cap_gt1 l Fl) as (T & ET & WT & MT).
  exists T. split; [exact ET|]. split; [exact WT|]. intros x y Hx Hy Ix Iy. apply MT.
  destruct (piece_cover op x y Ix Iy) as (P & Q & Hp & Hpx & Hpy). eauto.
Qed.

Lemma arg_set_ok e A : WF cap A -> WF cap (arg_set e A) /\ forall v, mem v (arg_set e A) = mem v A.
Proof.
  intros HA. unfold arg_set, enum_bool. destruct (expr_is_bool e); [|now split].
  destruct A as [|[a b] [|i t]]; try now split.
  destruct (b =? a + 1) eqn:E; [|now split].
  split; [split; cbn; lia|]. intros v. cbn. unfold in_itv; cbn. lia.
Qed.

Lemma image_wf e : forall t T, Forall (WF cap) t -> image cap t e = Some T -> WF cap T.
Proof.
  induction e as [n|z|op l IHl r IHr]; intros t T Ht; cbn [image].
  - intros E. apply nth_error_In in E. rewrite Forall_forall in Ht. auto.
  - intros [= <-]. apply WF_single; lia.
  - destruct (image cap t l) as [A|] eqn:EA; [|discriminate]. destruct (image cap t r) as [B|] eqn:EB; [|discriminate].
    cbn [obind]. intros E.
    destruct (bin_image_spec op (arg_set l A) (arg_set r B)) as (T' & ET & WT & _); [apply arg_set_ok; eauto..|].
    congruence.
Qed.

Fixpoint consts_ok (e : expr) : Prop :=
  match e with
  | EVar _ => True
  | EConst z => in_i64 z
  | EBin _ l r => consts_ok l /\ consts_ok r
  end.

(* Range propagation along an expression tree, for any evaluator [ev] that computes constants and function
   applications as [eval] does and whose variables take values of their column types: whatever [ev] returns
   lies in the propagated range.  [eval] on a row and FilterNull.evalO on a row with NULLs are such. *)
Lemma image_sound (ev : expr -> option Z) t :
  (forall n x, ev (EVar n) = Some x ->
     exists S, nth_error t n = Some S /\ WF cap S /\ mem x S = true /\ in_i64 x) ->
  (forall z, ev (EConst z) = Some z) ->
  (forall op l r, ev (EBin op l r) = obind (ev l) (fun x => obind (ev r) (fun y => Some (bin_value op x y)))) ->
  forall e y, consts_ok e -> ev e = Some y ->
  exists T, image cap t e = Some T /\ WF cap T /\ mem y T = true /\ in_i64 y.
Proof.
  intros Hvar Hconst Hbin. induction e as [n|z|op l IHl r IHr]; intros y Hc He; cbn [image].
  - exact (Hvar n y He).
  - rewrite Hconst in He. injection He as <-. exists [(z, z)]. split; [reflexivity|].
    split; [apply WF_single; lia|]. split; [apply mem_single; lia|exact Hc].
  - destruct Hc as [Hcl Hcr]. rewrite Hbin in He.
    destruct (ev l) as [x|]; [|discriminate]. destruct (ev r) as [y'|]; [|discriminate]. injection He as <-.
    destruct (IHl x Hcl eq_refl) as (A & -> & WA & MA & IA).
    destruct (IHr y' Hcr eq_refl) as (B & -> & WB & MB & IB). cbn [obind].
    destruct (arg_set_ok l A WA) as [WA' MA']. destruct (arg_set_ok r B WB) as [WB' MB'].
    rewrite <- MA' in MA. rewrite <- MB' in MB.
    destruct (bin_image_spec op _ _ WA' WB') as (T & ET & WT & MT).
    exists T. auto using bin_value_in_i64.
Qed.

(* C06 for the integer expression language: whatever the expression evaluates to on a row of
   the input type lies in the propagated range, and propagation succeeds *)
Theorem expr_sound e : forall env tenv y,
  Forall2 (fun v S => WF cap S /\ mem v S = true /\ in_i64 v) env tenv -> consts_ok e ->
  eval env e = Some y ->
  exists T, image cap tenv e = Some T /\ WF cap T /\ mem y T = true /\ in_i64 y.
Proof.
  intros env tenv y Henv. apply (image_sound (eval env)); [|reflexivity|reflexivity].
  intros n x. exact (Forall2_nth_error _ env tenv n x Henv).
Qed.
End Sound.
