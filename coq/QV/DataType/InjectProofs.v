From Coq Require Import ZArith List Reals Lia.
From Flocq Require Import Core IEEE754.BinarySingleNaN IEEE754.Binary IEEE754.Bits.
From QV Require Import DataType.Inject.

Definition injective {A B} (f : A -> option B) : Prop :=
  forall a a' b, f a = Some b -> f a' = Some b -> a = a'.

Lemma opt_lift_some {A B} (f : A -> option B) x y : opt_lift f x = Some y ->
  match x, y with None, None => True | Some a, Some b => f a = Some b | _, _ => False end.
Proof. destruct x as [a|]; cbn; [destruct (f a)|]; now intros [= <-]. Qed.

(* the step that list_lift and struct_lift share *)
Lemma lift_cons_some {B} (o : option B) (ot : option (list B)) l :
  match o, ot with Some b, Some t => Some (b :: t) | _, _ => None end = Some l ->
  exists b t, o = Some b /\ ot = Some t /\ l = b :: t.
Proof. destruct o, ot; try discriminate. intros [= <-]. eauto. Qed.

(* the converted value lies in the converted type: membership is pointwise *)
Lemma opt_lift_image {A B} (f : A -> option B) (P : A -> Prop) (Q : B -> Prop) :
  (forall a b, P a -> f a = Some b -> Q b) ->
  forall x y, (forall a, x = Some a -> P a) -> opt_lift f x = Some y -> (forall b, y = Some b -> Q b).
Proof.
  intros H x y Hx E b ->. apply opt_lift_some in E. destruct x as [a|]; [eauto|destruct E].
Qed.

Lemma b2i_injective a b : b2i a = b2i b -> a = b.
Proof. destruct a, b; cbn; congruence. Qed.
Lemma i2b_some i b : i2b i = Some b -> i = b2i b.
Proof. destruct i as [|[p|p|]|p]; cbn; now intros [= <-]. Qed.
Lemma i2b_injective : injective i2b.
Proof. intros a a' b H H'. apply i2b_some in H, H'. congruence. Qed.

Notation fexp64 := (FLT_exp (3 - 1024 - 53) 53).
Notation rnd64 x := (round radix2 fexp64 ZnearestE x).

Local Instance prec_gt_0_53 : Prec_gt_0 53. Proof. unfold Prec_gt_0. reflexivity. Qed.
Local Instance valid_exp64 : Valid_exp fexp64. Proof. apply FLT_exp_valid. apply prec_gt_0_53. Qed.

Lemma i2f_correct i : (Z.abs i <= 2 ^ 63)%Z ->
  Binary.B2R 53 1024 (i2f i) = rnd64 (IZR i) /\ Binary.is_finite 53 1024 (i2f i) = true.
Proof.
  intros Hi. unfold i2f.
  pose proof (Binary.binary_normalize_correct 53 1024 (refl_equal _) (refl_equal _) mode_NE i 0 false) as H.
  assert (E : F2R (Float radix2 i 0) = IZR i) by (unfold F2R; cbn; ring).
  rewrite E in H. cbn [round_mode] in H.
  change (SpecFloat.fexp 53 1024) with fexp64 in H.
  (* no overflow: |round i| <= 2^63 < 2^1024 *)
  assert (Hb : (Rabs (rnd64 (IZR i)) < bpow radix2 1024)%R).
  { apply Rle_lt_trans with (bpow radix2 63).
    - apply abs_round_le_generic; [apply valid_exp64|apply valid_rnd_N| |].
      { apply generic_format_FLT_bpow; [apply prec_gt_0_53|lia]. }
      rewrite <- abs_IZR. change (bpow radix2 63) with (IZR (2 ^ 63)). now apply IZR_le.
    - apply bpow_lt. lia. }
  rewrite (Rlt_bool_true _ _ Hb) in H. tauto.
Qed.

Lemma small_int_format i : (Z.abs i <= 2 ^ 53)%Z -> generic_format radix2 fexp64 (IZR i).
Proof.
  intros Hi. apply generic_format_abs_inv. rewrite <- abs_IZR.
  destruct (Z.eq_dec (Z.abs i) (2 ^ 53)) as [->|E].
  - (* 54 bits, but a power of two *)
    change (IZR (2 ^ 53)) with (bpow radix2 53). apply generic_format_FLT_bpow; [apply prec_gt_0_53|lia].
  - apply generic_format_FLT, FLT_spec with (Float radix2 (Z.abs i) 0); cbn; [unfold F2R; cbn; ring|lia|lia].
Qed.

(* 2^63 itself is refused (it would saturate to i64::MAX) *)
Example f2i_two_pow_63_refused : f2i (i2f (2 ^ 63)) = None /\ f2i (i2f (- 2 ^ 63)) = Some (- 2 ^ 63)%Z.
Proof. vm_compute. split; reflexivity. Qed.

(* a non-integral float is refused: 0.5, 1.5, -2.25, and the largest non-integral double *)
Example f2i_lossy_refused :
  f2i (b64_of_bits 4602678819172646912) = None /\ f2i (b64_of_bits 4609434218613702656) = None /\
  f2i (b64_of_bits 13835339530258874368) = None /\ f2i (b64_of_bits 4841369599423283199) = None.
Proof. vm_compute. repeat split. Qed.

Example f2i_accepts_integral :
  f2i (b64_of_bits 4611686018427387904) = Some 2%Z /\ f2i (i2f (-7)) = Some (-7)%Z /\ f2i (i2f (2 ^ 53)) = Some (2 ^ 53)%Z.
Proof. vm_compute. repeat split. Qed.
