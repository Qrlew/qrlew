From QV Require Import Rel.Unique.

Section P.
Context {V : Type}.
Variable interp : string -> V -> V.      (* the meaning of a unary function on column values *)

Definition injective_on (f : V -> V) (l : list V) : Prop :=
  forall x y, In x l -> In y l -> f x = f y -> x = y.

(* apply the stripped functions, innermost first, to a value *)
Fixpoint apply_chain (fs : list string) (v : V) : V :=
  match fs with
  | [] => v
  | f :: t => interp f (apply_chain t v)
  end.

(* every function of the chain is injective on the values it is applied to *)
Fixpoint chain_injective (fs : list string) (l : list V) : Prop :=
  match fs with
  | [] => True
  | f :: t => chain_injective t l /\ injective_on (interp f) (map (apply_chain t) l)
  end.
End P.
