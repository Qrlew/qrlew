From QV Require Import Rel.Track ListFacts.
Open Scope Z_scope.

Lemma flat_map_filter {A B} (F : A -> list B) (c : A -> bool) l :
  (forall x, c x = false -> F x = []) -> flat_map F l = flat_map F (filter c l).
Proof.
  intros H. induction l as [|x t IH]; cbn [flat_map filter]; [reflexivity|].
  destruct (c x) eqn:Hc; cbn [flat_map]; rewrite IH; [reflexivity|]. rewrite (H x Hc). reflexivity.
Qed.

Lemma existsb_within {A} (p c : A -> bool) l :
  (forall x, c x = false -> p x = false) -> existsb p l = existsb p (filter c l).
Proof.
  intros H. induction l as [|x t IH]; cbn [existsb filter]; [reflexivity|].
  destruct (c x) eqn:Hc; cbn [existsb]; rewrite IH; [reflexivity|]. rewrite (H x Hc). reflexivity.
Qed.

(* The rows whose unit lies in a set [c] of units, of which NULL may be one.  Keeping them commutes with every
   operator of the fragment whatever [c] is, because the rows that a tracked join, a set operation or a group
   brings together have the same unit.  For c = {u} this is locality ([restrict u] is [keep] of that set); for
   c = {NULL} it says that a row without unit can only come from source rows without unit. *)
Definition keep (c : option Z -> bool) (l : list trow) : list trow := filter (fun r => c (fst r)) l.

Lemma unit_eqb_eq a b : unit_eqb a b = true -> a = b.
Proof. destruct a, b; cbn; try discriminate. intros H. apply Z.eqb_eq in H. congruence. Qed.

Lemma unit_eqb_sep (c : option Z -> bool) a b : c a = true -> c b = false -> unit_eqb a b = false.
Proof. intros Ha Hb. destruct (unit_eqb a b) eqn:E; [|reflexivity]. apply unit_eqb_eq in E. congruence. Qed.

Lemma keep_flat_map (F G : trow -> list trow) c l :
  (forall r o, In o (F r) -> fst o = fst r) -> (forall r, c (fst r) = true -> F r = G r) ->
  keep c (flat_map F l) = flat_map G (keep c l).
Proof.
  intros HF HG. unfold keep. induction l as [|x t IH]; cbn [flat_map filter]; [reflexivity|].
  rewrite filter_app, IH, (filter_const _ (c (fst x)) (F x)).
  - destruct (c (fst x)) eqn:Hc; [rewrite (HG x Hc)|]; reflexivity.
  - intros o Ho. rewrite (HF x o Ho). reflexivity.
Qed.

Lemma keep_join g c l1 l2 : keep c (join_rows true g l1 l2) = join_rows true g (keep c l1) (keep c l2).
Proof.
  apply keep_flat_map.
  - intros r o Ho. apply in_flat_map in Ho as (r2 & _ & Ho).
    destruct (negb true || unit_eqb (fst r) (fst r2)); [|destruct Ho].
    destruct (g (snd r) (snd r2)); [|destruct Ho]. destruct Ho as [<-|[]]. reflexivity.
  - (* a row within c meets no row outside c *)
    intros r1 Hc1. apply flat_map_filter. intros r2 Hc2. cbn [negb orb]. rewrite (unit_eqb_sep c _ _ Hc1 Hc2). reflexivity.
Qed.

Lemma keep_join_pub pub g c l : keep c (join_pub pub g l) = join_pub pub g (keep c l).
Proof.
  apply keep_flat_map; [|reflexivity]. intros r o Ho. apply in_flat_map in Ho as (q & _ & Ho).
  destruct (g (snd r) q); [|destruct Ho]. destruct Ho as [<-|[]]. reflexivity.
Qed.

Lemma keep_setop b c l1 l2 :
  keep c (filter (fun r => Bool.eqb b (existsb (trow_eqb r) l2)) l1) =
  filter (fun r => Bool.eqb b (existsb (trow_eqb r) (keep c l2))) (keep c l1).
Proof.
  unfold keep at 1 3. rewrite filter_filter_comm. apply filter_ext_in. intros r Hr.
  apply filter_In in Hr as [_ Hr]. f_equal. apply existsb_within.
  intros x Hx. unfold trow_eqb. rewrite (unit_eqb_sep c _ _ Hr Hx). reflexivity.
Qed.

Lemma gkey_eqb_eq a b : gkey_eqb a b = true -> a = b.
Proof.
  destruct a as [a1 a2], b as [b1 b2]. unfold gkey_eqb. cbn [fst snd].
  intros H. apply andb_true_iff in H as [H1 H2]. apply Z.eqb_eq in H2. subst.
  destruct a1, b1; cbn in H1; try discriminate; [apply Z.eqb_eq in H1; subst|]; reflexivity.
Qed.

Lemma dedupk_filter (p : gkey -> bool) l : filter p (dedupk l) = dedupk (filter p l).
Proof.
  induction l as [|k t IH]; cbn [dedupk filter]; [reflexivity|].
  destruct (p k) eqn:Hp; cbn [dedupk]; rewrite filter_filter_comm, <- IH; [reflexivity|].
  (* the later copies of a key that p rejects are rejected with it *)
  apply (filter_const _ true). intros k' Hk'. apply filter_In in Hk' as [_ Hpk'].
  destruct (gkey_eqb k k') eqn:He; [|reflexivity]. apply gkey_eqb_eq in He. congruence.
Qed.

Lemma keep_reduce key agg c l : keep c (reduce true key agg l) = reduce true key agg (keep c l).
Proof.
  unfold reduce, keep. rewrite filter_map_comm. cbn [fst group_unit].
  rewrite <- (filter_map_comm (gk true key) (fun k => c (fst k))), <- dedupk_filter.
  apply map_ext_in. intros k Hk. apply filter_In in Hk as [_ Hc].
  (* the rows of a group have the unit of its key *)
  rewrite filter_filter_comm, (filter_const (fun r => c (fst r)) true); [reflexivity|].
  intros r Hr. apply filter_In in Hr as [_ Hr]. apply gkey_eqb_eq in Hr. subst k. exact Hc.
Qed.

(* [db'] holds the rows of [db] within c, table by table: stated so, the restricted database need not be
   written [fun n => keep c (db n)] (no extensionality is at hand).  The cases are the operators [skel_ok]
   accepts: a Map without LIMIT, a join with a public side it does not preserve, a join of tracked relations on
   equal units, a Reduce grouped by the unit *)
Theorem tracked_keep e : skel_ok (skel_of e) = true ->
  forall c db db', (forall n, keep c (db n) = db' n) -> keep c (eval db e) = eval db' e.
Proof.
  intros H c db db' Hdb.
  induction e as [n|f [k|] e IH|p e IH|[|] pub g alone e IH|[|] g e1 IH1 e2 IH2|e1 IH1 e2 IH2|b e1 IH1 e2 IH2|[|] key agg e IH];
    cbn [skel_of skel_ok negb andb] in H; try discriminate H; try apply andb_true_iff in H as [H1 H2];
    cbn [eval]; rewrite <- ?IH, <- ?IH1, <- ?IH2 by assumption.
  - apply Hdb.
  - exact (filter_map_comm _ (fun r => c (fst r)) _).
  - apply filter_filter_comm.
  - rewrite !app_nil_r. apply keep_join_pub.
  - apply keep_join.
  - apply filter_app.
  - apply keep_setop.
  - apply keep_reduce.
Qed.

Lemma eval_nil e : skel_ok (skel_of e) = true -> eval (fun _ => []) e = [].
Proof.
  intros H. rewrite <- (tracked_keep e H (fun _ => false) (fun _ => []) (fun _ => []) (fun _ => eq_refl)).
  apply (filter_const _ false). reflexivity.
Qed.

Definition all_units (l : list trow) : Prop := forall r, In r l -> fst r <> None.
