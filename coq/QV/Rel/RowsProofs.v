From QV Require Import Rel.Rows ListFacts.
Open Scope Z_scope.

Inductive sub {A} : list A -> list A -> Prop :=
| sub_nil : sub [] []
| sub_skip x a b : sub a b -> sub a (x :: b)
| sub_keep x a b : sub a b -> sub (x :: a) (x :: b).

Lemma sub_in {A} (a b : list A) x : sub a b -> In x a -> In x b.
Proof. induction 1; cbn; tauto. Qed.
Lemma sub_length {A} (a b : list A) : sub a b -> (length a <= length b)%nat.
Proof. induction 1; cbn; lia. Qed.
Lemma sub_NoDup {A} (a b : list A) : sub a b -> NoDup b -> NoDup a.
Proof.
  induction 1 as [|x a b Hs IH|x a b Hs IH]; intros Hn; [constructor|inversion Hn; auto|].
  inversion Hn. constructor; [|auto]. intros Hin. eauto using sub_in.
Qed.
Lemma sub_refl {A} (a : list A) : sub a a.
Proof. induction a; [apply sub_nil|apply sub_keep; auto]. Qed.
Lemma sub_nil_l {A} (a : list A) : sub [] a.
Proof. induction a; [apply sub_nil|apply sub_skip; auto]. Qed.
Lemma sub_app {A} (a a' b b' : list A) : sub a a' -> sub b b' -> sub (a ++ b) (a' ++ b').
Proof. induction 1; cbn; intros; [assumption|apply sub_skip; auto|apply sub_keep; auto]. Qed.
Lemma sub_app_l {A} (a b : list A) : sub a (a ++ b).
Proof. induction a as [|x a IH]; cbn; [apply sub_nil_l|apply sub_keep, IH]. Qed.
Lemma sub_app_r {A} (a b : list A) : sub b (a ++ b).
Proof. apply (sub_app [] a b b); [apply sub_nil_l|apply sub_refl]. Qed.
Lemma sub_trans {A} (a b c : list A) : sub a b -> sub b c -> sub a c.
Proof.
  intros Hab Hbc. revert a Hab. induction Hbc as [|x b c Hbc IH|x b c Hbc IH]; intros a Hab.
  - exact Hab.
  - apply sub_skip. auto.
  - inversion Hab; [apply sub_skip; auto|apply sub_keep; auto].
Qed.
Lemma sub_filter {A} (f : A -> bool) l : sub (filter f l) l.
Proof. induction l as [|x l IH]; cbn; [apply sub_nil|]. destruct (f x); [apply sub_keep|apply sub_skip]; exact IH. Qed.
Lemma sub_firstn {A} n (l : list A) : sub (firstn n l) l.
Proof. pose proof (sub_app_l (firstn n l) (skipn n l)) as H. rewrite firstn_skipn in H. exact H. Qed.
Lemma sub_skipn {A} n (l : list A) : sub (skipn n l) l.
Proof. pose proof (sub_app_r (firstn n l) (skipn n l)) as H. rewrite firstn_skipn in H. exact H. Qed.
Lemma sub_nodup {A} d (l : list A) : sub (nodup d l) l.
Proof. induction l as [|x l IH]; cbn; [apply sub_nil|]. destruct (in_dec d x l); [apply sub_skip|apply sub_keep]; exact IH. Qed.
Lemma sub_flat_map {A B} (g : A -> list B) a b : sub a b -> sub (flat_map g a) (flat_map g b).
Proof.
  induction 1 as [|x a b Hs IH|x a b Hs IH]; cbn; [apply sub_nil| |apply sub_app; [apply sub_refl|exact IH]].
  eapply sub_trans; [exact IH|apply sub_app_r].
Qed.

(* the pairs of a join, enumerated from one side; [c] puts the two rows of a pair together.  By computation
   [inner P L R] is [pairs (@app _) P L R] (through the left rows) and [inner' P L R] is
   [pairs (fun r l => l ++ r) (fun r l => P l r) R L] (through the right rows): what is said of [pairs] holds of
   either side of a join *)
Definition pairs {A B C} (c : A -> B -> C) (Q : A -> B -> bool) (L : list A) (R : list B) : list C :=
  flat_map (fun l => map (c l) (filter (Q l) R)) L.

Lemma pairs_cons_l {A B C} (c : A -> B -> C) Q l L R : pairs c Q (l :: L) R = map (c l) (filter (Q l) R) ++ pairs c Q L R.
Proof. reflexivity. Qed.

Lemma pairs_cons_r {A B C} (c : A -> B -> C) Q L r R :
  Permutation (pairs c Q L (r :: R)) (map (fun l => c l r) (filter (fun l => Q l r) L) ++ pairs c Q L R).
Proof.
  induction L as [|l L IH]; [reflexivity|]. rewrite !pairs_cons_l, IH. cbn [filter].
  destruct (Q l r); cbn [map app]; [constructor|]; apply Permutation_app_swap_app.
Qed.

Theorem pairs_swap {A B C} (c : A -> B -> C) Q L R :
  Permutation (pairs c Q L R) (pairs (fun r l => c l r) (fun r l => Q l r) R L).
Proof.
  induction L as [|l L IH].
  - unfold pairs at 2. induction R as [|r R IHR]; cbn; [constructor|exact IHR].
  - rewrite pairs_cons_r. apply Permutation_app_head. exact IH.
Qed.

Theorem inner_perm P L R : Permutation (inner P L R) (inner' P L R).
Proof. exact (pairs_swap (@app _) P L R). Qed.

Lemma in_inner P L R x :
  In x (inner P L R) <-> exists l r, In l L /\ In r R /\ P l r = true /\ x = l ++ r.
Proof.
  unfold inner. rewrite in_flat_map. split.
  - intros (l & Hl & Hx). apply in_map_iff in Hx as (r & <- & Hr). apply filter_In in Hr as [Hr Hp]. eauto 8.
  - intros (l & r & Hl & Hr & Hp & ->). exists l. split; [exact Hl|]. apply in_map, filter_In. auto.
Qed.

Lemma in_map_filter {A B} (f : A -> B) g l y : In y (map f (filter g l)) -> exists x, In x l /\ y = f x.
Proof. intros H. apply in_map_iff in H as (x & <- & H). apply filter_In in H as [H _]. eauto. Qed.

Lemma in_join_rows P k nl nr L R x : In x (join_rows P k nl nr L R) ->
  (exists l r, In l L /\ In r R /\ P l r = true /\ x = l ++ r) \/
  (exists l, In l L /\ x = l ++ nulls nr /\ (k = JLeft \/ k = JFull)) \/
  (exists r, In r R /\ x = nulls nl ++ r /\ (k = JRight \/ k = JFull)).
Proof.
  intros H. destruct k; cbn [join_rows] in H; repeat (apply in_app_or in H as [H|H]);
    first [left; apply in_inner; exact H
          |right; left; apply in_map_filter in H as (l & Hl & ->); now eauto
          |right; right; apply in_map_filter in H as (r & Hr & ->); now eauto].
Qed.

Lemma row_in_app l r s1 s2 : row_in l s1 = true -> row_in r s2 = true -> row_in (l ++ r) (s1 ++ s2) = true.
Proof.
  revert s1; induction l as [|v l IH]; intros [|t s1]; cbn; try discriminate; auto.
  intros H Hr. apply andb_true_iff in H as [Hv Hl]. rewrite Hv, (IH s1 Hl Hr). reflexivity.
Qed.

Lemma row_in_length r s : row_in r s = true -> length r = length s.
Proof.
  revert s; induction r as [|v r IH]; intros [|t s]; cbn; try discriminate; auto.
  intros H. apply andb_true_iff in H as [_ H]. f_equal. auto.
Qed.

Lemma val_in_optional v t : val_in v t = true -> val_in v (optional t) = true.
Proof. destruct v; cbn; auto. Qed.

Lemma row_in_optional r s : row_in r s = true -> row_in r (map optional s) = true.
Proof.
  revert s; induction r as [|v r IH]; intros [|t s]; cbn; try discriminate; auto.
  intros H. apply andb_true_iff in H as [Hv H]. rewrite (val_in_optional _ _ Hv), (IH s H). reflexivity.
Qed.

Lemma nulls_length n : length (nulls n) = n.
Proof. apply repeat_length. Qed.

Lemma nulls_in s : row_in (nulls (length s)) (map optional s) = true.
Proof. induction s as [|t s IH]; cbn; auto. Qed.

Lemma existsb_filter {A} (f : A -> bool) l : existsb f l = match filter f l with [] => false | _ => true end.
Proof. induction l as [|x l IH]; cbn; [reflexivity|]. destruct (f x); [reflexivity|exact IH]. Qed.

Lemma pairs_length_le {A B C} (c : A -> B -> C) Q L R n :
  (forall l, In l L -> (length (filter (Q l) R) <= n)%nat) ->
  (length (pairs c Q L R) <= length (filter (fun l => existsb (Q l) R) L) * n)%nat.
Proof.
  induction L as [|l L IH]; intros H; [cbn; lia|].
  assert (IH' := IH (fun y Hy => H y (or_intror Hy))). assert (Hl := H l (or_introl eq_refl)).
  rewrite pairs_cons_l, app_length, map_length. cbn [filter]. rewrite existsb_filter.
  destruct (filter (Q l) R); cbn [length] in *; lia.
Qed.

Lemma filter_partition_perm {A} (f : A -> bool) l : Permutation (filter f l ++ filter (fun x => negb (f x)) l) l.
Proof.
  induction l as [|x l IH]; cbn; [constructor|]. destruct (f x); cbn; [constructor; exact IH|].
  symmetry. apply Permutation_cons_app. symmetry. exact IH.
Qed.

Theorem join_rows_card k (ul ur : bool) el er P nl nr L R :
  card el (Z.of_nat (length L)) -> card er (Z.of_nat (length R)) ->
  (ur = true -> forall l, In l L -> (length (filter (P l) R) <= 1)%nat) ->
  (ul = true -> forall r, In r R -> (length (filter (fun l => P l r) L) <= 1)%nat) ->
  Z.of_nat (length (join_rows P k nl nr L R)) <= i64_max ->
  card (EJoin k ul ur el er) (Z.of_nat (length (join_rows P k nl nr L R))).
Proof.
  intros Ha Hb Hur Hul Hmax. apply (CJoin k ul ur el er _ _ _ Ha Hb); [lia|exact Hmax|].
  exists (Z.of_nat (length (inner P L R))), (Z.of_nat (length (unmatched_left P L R))), (Z.of_nat (length (unmatched_right P L R))).
  set (ML := filter (fun l => existsb (P l) R) L). set (MR := filter (fun r => existsb (fun l => P l r) L) R).
  assert (HL : (length ML + length (unmatched_left P L R) = length L)%nat) by apply filter_partition_length.
  assert (HR : (length MR + length (unmatched_right P L R) = length R)%nat) by apply filter_partition_length.
  (* every right row matched by l is a matched right row *)
  assert (Hp : (length (inner P L R) <= length ML * length MR)%nat).
  { apply pairs_length_le. intros l Hl. apply filter_length_le. intros r Hr Hp. apply existsb_exists. eauto. }
  repeat split; try lia.
  - intros E. assert (H1 : (length (inner P L R) <= length ML * 1)%nat) by exact (pairs_length_le _ _ _ _ _ (Hur E)). lia.
  - intros E. assert (H1 : (length (inner' P L R) <= length MR * 1)%nat) by exact (pairs_length_le _ _ _ _ _ (Hul E)).
    rewrite (Permutation_length (inner_perm P L R)). lia.
  - destruct k; cbn [join_rows]; rewrite ?app_length, ?map_length; lia.
Qed.

Lemma colvals_app i a b : colvals i (a ++ b) = colvals i a ++ colvals i b.
Proof. unfold colvals. apply flat_map_app. Qed.

Lemma colvals_perm i a b : Permutation a b -> Permutation (colvals i a) (colvals i b).
Proof. unfold colvals. apply Permutation_flat_map. Qed.

Lemma sub_unique i a b : sub a b -> NoDup (colvals i b) -> NoDup (colvals i a).
Proof. intros H. apply sub_NoDup, sub_flat_map, H. Qed.

Lemma colvals_map_shift i j (f : row -> row) l :
  (forall r, In r l -> nth i (f r) None = nth j r None) -> colvals i (map f l) = colvals j l.
Proof.
  unfold colvals. induction l as [|r l IH]; cbn [map flat_map]; intros H; [reflexivity|].
  rewrite (H r (or_introl eq_refl)), IH by auto using in_cons. reflexivity.
Qed.

Lemma colvals_map_none i (f : row -> row) l :
  (forall r, In r l -> nth i (f r) None = None) -> colvals i (map f l) = [].
Proof.
  unfold colvals. induction l as [|r l IH]; cbn [map flat_map]; intros H; [reflexivity|].
  rewrite (H r (or_introl eq_refl)), IH by auto using in_cons. reflexivity.
Qed.

Lemma pairs_vals (c : row -> row -> row) Q (L R : list row) i j :
  (forall l r, In l L -> In r R -> nth i (c l r) None = nth j l None) ->
  (forall l, In l L -> (length (filter (Q l) R) <= 1)%nat) ->
  colvals i (pairs c Q L R) = colvals j (filter (fun l => existsb (Q l) R) L).
Proof.
  intros Hc H1. induction L as [|l L IH]; [reflexivity|].
  rewrite pairs_cons_l, colvals_app, IH by auto using in_cons. cbn [filter]. rewrite existsb_filter.
  assert (Hl := H1 l (or_introl eq_refl)). assert (Hr := incl_filter (Q l) R).
  destruct (filter (Q l) R) as [|r [|r' ms]]; cbn in Hl; [reflexivity| |lia].
  unfold colvals at 1 3. cbn [map flat_map]. rewrite (Hc l r), app_nil_r by auto using in_eq. reflexivity.
Qed.

Lemma matched_and_unmatched_unique (c : row -> row -> row) Q (L R : list row) i j :
  (forall l r, In l L -> In r R -> nth i (c l r) None = nth j l None) ->
  (forall l, In l L -> (length (filter (Q l) R) <= 1)%nat) ->
  NoDup (colvals j L) -> NoDup (colvals i (pairs c Q L R) ++ colvals j (filter (fun l => negb (existsb (Q l) R)) L)).
Proof.
  intros Hc H1. rewrite (pairs_vals c Q L R i j Hc H1), <- colvals_app.
  apply Permutation_NoDup. symmetry. apply colvals_perm, filter_partition_perm.
Qed.

Lemma join_rows_sub P k nl nr L R : sub (join_rows P k nl nr L R) (join_rows P JFull nl nr L R).
Proof. destruct k; cbn [join_rows]; auto using sub_refl, sub_app, sub_app_l, sub_app_r. Qed.

(* the pairs and the padded left rows share out the values of the column, the padded right rows hold NULL there *)
Theorem join_left_unique k P nl nr L R i :
  (forall l, In l L -> length l = nl) -> (i < nl)%nat ->
  (forall l, In l L -> (length (filter (P l) R) <= 1)%nat) ->
  NoDup (colvals i L) -> NoDup (colvals i (join_rows P k nl nr L R)).
Proof.
  intros Hlen Hi H1 Hnd.
  assert (Hc : forall l r : row, length l = nl -> nth i (l ++ r) None = nth i l None).
  { intros l r <-. apply app_nth1, Hi. }
  apply (sub_unique i _ _ (join_rows_sub P k nl nr L R)). cbn [join_rows].
  rewrite !colvals_app, (colvals_map_shift i i), colvals_map_none, app_nil_r.
  - apply (matched_and_unmatched_unique (@app _) P L R i i); auto.
  - (* the padded right rows hold NULL at i *) intros r _. rewrite Hc by apply nulls_length. apply nth_repeat.
  - (* the padded left rows keep column i *) intros l Hl. apply filter_In in Hl as [Hl _]. auto.
Qed.

Theorem join_right_unique k P nl nr L R j :
  (forall l, In l L -> length l = nl) ->
  (forall r, In r R -> (length (filter (fun l => P l r) L) <= 1)%nat) ->
  NoDup (colvals j R) -> NoDup (colvals (nl + j) (join_rows P k nl nr L R)).
Proof.
  intros Hlen H1 Hnd.
  assert (Hc : forall l r : row, length l = nl -> nth (nl + j) (l ++ r) None = nth j r None).
  { intros l r <-. apply app_nth2_plus. }
  apply (sub_unique _ _ _ (join_rows_sub P k nl nr L R)). cbn [join_rows].
  (* the pairs enumerated through the right rows (inner_perm), so that R is the side with at most one match *)
  rewrite !colvals_app, colvals_map_none, (colvals_map_shift (nl + j) j), (colvals_perm _ _ _ (inner_perm P L R)).
  - apply (matched_and_unmatched_unique (fun r l => l ++ r) (fun r l => P l r) R L (nl + j) j); auto.
  - (* the padded right rows keep column j, at nl + j *) intros r _. apply Hc, nulls_length.
  - (* the padded left rows hold NULL there *) intros l Hl. apply filter_In in Hl as [Hl _]. rewrite Hc by auto. apply nth_repeat.
Qed.

(* FIRST of a column whose values are distinct in the input: one row out of each group *)
Definition firsts (G : list (list row)) : list row := flat_map (fun g => match g with [] => [] | r :: _ => [r] end) G.
Lemma firsts_sub G : sub (firsts G) (concat G).
Proof.
  unfold firsts. induction G as [|g G IH]; cbn [concat flat_map]; [apply sub_nil|].
  apply sub_app; [|exact IH]. destruct g; [apply sub_nil|apply sub_keep, sub_nil_l].
Qed.
