From QV Require Import Rel.Eval Rel.RowsProofs Rel.SizeProofs.
Open Scope Z_scope.

Lemma remove_one_sub r l : sub (remove_one r l) l.
Proof. induction l as [|y l IH]; cbn; [apply sub_nil|]. destruct (row_dec r y); [apply sub_skip, sub_refl|apply sub_keep, IH]. Qed.

Lemma except_all_sub L R : sub (except_all L R) L.
Proof.
  unfold except_all. revert L. induction R as [|r R IH]; intros L; cbn; [apply sub_refl|].
  eapply sub_trans; [apply IH|apply remove_one_sub].
Qed.

Lemma intersect_all_sub L R : sub (intersect_all L R) L.
Proof.
  revert R. induction L as [|l L IH]; intros R; cbn; [apply sub_nil|].
  destruct (memb l R); [apply sub_keep|apply sub_skip]; apply IH.
Qed.

Lemma set_rows_sub op all L R :
  sub (set_rows op all L R) match op with SUnion => L ++ R | SExcept | SIntersect => L end.
Proof.
  destruct op, all; cbn [set_rows].
  - apply sub_refl.
  - apply sub_nodup.
  - apply except_all_sub.
  - eapply sub_trans; [apply sub_nodup|apply sub_filter].
  - apply intersect_all_sub.
  - eapply sub_trans; [apply sub_nodup|apply sub_filter].
Qed.

Lemma memb_in r l : memb r l = true <-> In r l.
Proof. unfold memb. destruct (in_dec row_dec r l); split; auto; discriminate. Qed.

Lemma remove_one_in r l : In r l -> S (length (remove_one r l)) = length l.
Proof.
  induction l as [|x l IH]; cbn; [tauto|]. intros H. destruct (row_dec r x) as [->|Hn]; [reflexivity|].
  cbn. f_equal. apply IH. destruct H as [->|H]; [congruence|exact H].
Qed.

Lemma intersect_all_len_r L R : (length (intersect_all L R) <= length R)%nat.
Proof.
  revert R. induction L as [|l L IH]; intros R; cbn; [lia|].
  destruct (memb l R) eqn:E; [|apply IH].
  apply memb_in, remove_one_in in E. specialize (IH (remove_one l R)). cbn. lia.
Qed.

Lemma intersect_len_r all L R : (length (set_rows SIntersect all L R) <= length R)%nat.
Proof.
  destruct all; cbn [set_rows]; [apply intersect_all_len_r|].
  apply NoDup_incl_length; [apply NoDup_nodup|]. intros x Hx. apply nodup_In, filter_In in Hx as [_ Hx].
  apply memb_in. exact Hx.
Qed.

Theorem eval_card e : wf e -> card (erase e) (Z.of_nat (length (rows_of e))).
Proof.
  induction e as [s rows|f p lim off i IH|key agg i IH|k ul ur P nl nr l IHl r IHr|op all l IHl r IHr]; cbn [wf erase rows_of].
  - intros H. constructor; lia.
  - intros (Hi & Hlim & Hoff). apply (CMap lim off (erase i) _ _ (IH Hi)); [lia| |].
    + (* the window starts after the offset, in what the filter keeps *)
      assert (Hw : (length (rows_of (XMap f p lim off i)) <= length (rows_of i) - opt_nat off 0)%nat).
      { pose proof (sub_length _ _ (sub_filter f (rows_of i))). cbn [rows_of]. destruct lim; rewrite ?firstn_length, skipn_length, map_length; lia. }
      cbn [rows_of] in Hw. destruct off as [o|]; cbn [opt_nat] in *; [specialize (Hoff o eq_refl)|]; lia.
    + intros x ->. specialize (Hlim x eq_refl). rewrite firstn_length. lia.
  - intros Hi. destruct key as [key|].
    + apply (CReduceG (erase i) _ _ (IH Hi)). rewrite map_length.
      pose proof (sub_length _ _ (sub_nodup row_dec (map key (rows_of i)))) as H. rewrite map_length in H. lia.
    + apply (CReduceU (erase i) _ (IH Hi)).
  - intros (Hl & Hr & Hur & Hul & Hmax). apply join_rows_card; auto.
  - intros (Hl & Hr & Hmax). apply (CSet op all (erase l) (erase r) _ _ _ (IHl Hl) (IHr Hr)); [lia|exact Hmax|].
    pose proof (sub_length _ _ (set_rows_sub op all (rows_of l) (rows_of r))) as H.
    destruct op; [rewrite app_length in H; lia|lia|]. pose proof (intersect_len_r all (rows_of l) (rows_of r)). lia.
Qed.

Theorem eval_size_sound e : wf e -> sizes_ok (erase e) = true -> join_ok (erase e) = true ->
  fst (size_of (skeleton (erase e))) <= Z.of_nat (length (rows_of e)) <= snd (size_of (skeleton (erase e))).
Proof. intros Hw Hs Hj. apply size_sound; [exact Hs|exact Hj|apply eval_card; exact Hw]. Qed.
