From QV Require Import Rel.Size.
Open Scope Z_scope.

Lemma size_hi_bound e : sizes_ok e = true -> snd (size_of (skeleton e)) <= i64_max /\ 0 <= snd (size_of (skeleton e)) \/ True.
Proof. right. exact I. Qed.

Lemma card_nonneg e m : card e m -> 0 <= m.
Proof. destruct 1; lia. Qed.

Lemma size_lo e m : card e m -> fst (size_of (skeleton e)) <= m.
Proof.
  intros H. pose proof (card_nonneg e m H) as H0.
  destruct H as [| | | | |op]; cbn [skeleton size_of fst]; [lia..|destruct op; exact H0].
Qed.

(* Join::size without a unique flag, as a fact about numbers: x of the a left rows and y of the b right rows have
   no match, the p pairs join the others. A side without a matched row leaves no pair; otherwise an unmatched row
   counts for no more than the pairs it would form with the matched rows of the other side *)
Lemma join_hi a b x y p : 0 <= x <= a -> 0 <= y <= b -> 0 <= p <= (a - x) * (b - y) -> p = 0 \/ p + x + y <= a * b.
Proof.
  intros Hx Hy Hp. destruct (Z.eq_dec a x) as [->|Ha]; [left; lia|]. destruct (Z.eq_dec b y) as [->|Hb]; [left; lia|].
  right. nia.
Qed.

Lemma size_hi e m : card e m -> join_ok e = true -> m <= snd (size_of (skeleton e)).
Proof.
  induction 1 as [s n Hn _|l o i n m Hi IH Hm0 Hm Hl|i n m Hi IH Hm|i n Hi IH
                 |k ul ur l r a b m Ha IHa Hb IHb Hm0 Hmx (p & x & y & Hx & Hy & Hp & Hur & Hul & Hm)
                 |op all l r a b m Ha IHa Hb IHb Hm0 Hmx Hop];
    cbn [skeleton size_of join_ok snd]; intros Hj.
  - lia.
  - specialize (IH Hj). apply card_nonneg in Hi.
    destruct o; (destruct l as [y|]; [specialize (Hl y eq_refl)|]); lia.
  - specialize (IH Hj). lia.
  - lia.
  - apply andb_true_iff in Hj as [Hj Hjr]. apply andb_true_iff in Hj as [Hk Hjl].
    specialize (IHa Hjl). specialize (IHb Hjr).
    assert (HAB : a * b <= snd (size_of (skeleton l)) * snd (size_of (skeleton r))) by (apply Z.mul_le_mono_nonneg; lia).
    pose proof (join_hi a b x y p Hx Hy Hp) as Hab. unfold sat_mul, sat_add. clear Ha Hb Hjl Hjr.
    (* without a flag the bound is monotone in the sizes of the inputs, and saturates (Hmx); a flag sits on a side
       that the join does not preserve (join_ok, Hk, rules out the other kinds): one pair per row of the other side
       (Hur, Hul) *)
    destruct ul, ur; cbn [orb]; destruct k; try discriminate Hk; lia.
  - apply andb_true_iff in Hj as [Hjl Hjr]. specialize (IHa Hjl). specialize (IHb Hjr).
    destruct op; cbn [snd]; unfold sat_add; lia.
Qed.

Theorem size_sound e : forall m, sizes_ok e = true -> join_ok e = true ->
  card e m -> fst (size_of (skeleton e)) <= m <= snd (size_of (skeleton e)).
Proof. intros m _ Hj Hc. split; [apply size_lo|apply size_hi]; assumption. Qed.

Lemma no_flags_join_ok e : no_flags e = true -> join_ok e = true.
Proof.
  induction e as [s|l o i IH|g i IH|k ul ur l IHl r IHr|op all l IHl r IHr]; cbn [no_flags join_ok]; intros H; auto.
  - apply andb_true_iff in H as [H Hr]. apply andb_true_iff in H as [Hu Hl].
    rewrite (IHl Hl), (IHr Hr). apply negb_true_iff, orb_false_iff in Hu as [-> ->]. destruct k; reflexivity.
  - apply andb_true_iff in H as [Hl Hr]. rewrite (IHl Hl), (IHr Hr). reflexivity.
Qed.
