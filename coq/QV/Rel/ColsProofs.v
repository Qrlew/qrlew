From QV Require Import Rel.Cols Rel.RowsProofs Rel.EvalProofs ListFacts.
Open Scope Z_scope.

Lemma sub_map {A B} (g : A -> B) a b : sub a b -> sub (map g a) (map g b).
Proof. induction 1; cbn; [apply sub_nil|apply sub_skip|apply sub_keep]; assumption. Qed.

Lemma rows_sel_sub f cols lim off i :
  sub (rows_c (QSel f cols lim off i)) (map (fun r => map (fun c => ncol c r) cols) (filter f (rows_c i))).
Proof. unfold rows_c. cbn [to_rexp rows_of]. destruct lim; [eapply sub_trans; [apply sub_firstn|]|]; apply sub_skipn. Qed.

Lemma rows_len e : wfu e -> forall r, In r (rows_c e) -> length r = arity e.
Proof.
  induction e as [s u rows|f cols lim off i IH|key i IH|i IH|k li rj extra l IHl r IHr|op all l IHl r IHr];
    cbn [wfu arity]; intros Hw x Hx.
  - apply Hw. exact Hx.
  - apply (sub_in _ _ _ (rows_sel_sub _ _ _ _ _)), in_map_iff in Hx as (r & <- & _). apply map_length.
  - unfold rows_c in Hx. cbn [to_rexp rows_of] in Hx. apply in_map_iff in Hx as (kk & <- & Hk). apply nodup_In, in_map_iff in Hk as (r & <- & _). reflexivity.
  - destruct Hx as [<-|[]]. reflexivity.
  - destruct Hw as (Hl & Hr & _).
    unfold rows_c in Hx. cbn [to_rexp rows_of] in Hx.
    apply in_join_rows in Hx as [(a & b & Ha & Hb & _ & ->)|[(a & Ha & -> & _)|(b & Hb & -> & _)]];
      rewrite app_length, ?nulls_length; auto.
  - destruct Hw as (Hl & Hr & Ea). apply (sub_in _ _ _ (set_rows_sub _ _ _ _)) in Hx.
    destruct op; [apply in_app_or in Hx as [Hx|Hx]; [|rewrite Ea]|..]; auto.
Qed.

Lemma uflags_length e : length (uflags e) = arity e.
Proof.
  induction e as [s u rows|f cols lim off inp IH|key inp IH|inp IH|k li rj extra l IHl r IHr|op all l IHl r IHr]; cbn [uflags arity];
    rewrite ?app_length, ?map_length, ?repeat_length; auto.
Qed.

Lemma NoDup_head_twice {A} (x : A) l : ~ NoDup (x :: x :: l).
Proof. intros H. inversion H as [|? ? Hn _]. apply Hn. left. reflexivity. Qed.

(* a unique key gives at most one match: the matches of l all carry the key of l in column j, so two of them would repeat it *)
Lemma key_unique_match (P : list (option Z) -> list (option Z) -> bool) j R (kof : list (option Z) -> option Z) :
  NoDup (colvals j R) ->
  (forall l r, P l r = true -> exists z, kof l = Some z /\ nth j r None = Some z) ->
  forall l, (length (filter (P l) R) <= 1)%nat.
Proof.
  intros Hnd HP l. apply (sub_unique j _ _ (sub_filter (P l) R)) in Hnd.
  assert (HF : forall r, In r (filter (P l) R) -> exists z, kof l = Some z /\ nth j r None = Some z).
  { intros r Hr. apply filter_In in Hr as [_ Hr]. auto. }
  destruct (filter (P l) R) as [|r [|r' F]]; cbn [length]; [lia|lia|exfalso].
  destruct (HF r) as (z & Hk & Hz); [now left|]. destruct (HF r') as (z' & Hk' & Hz'); [now right; left|].
  rewrite Hk in Hk'. injection Hk' as <-. unfold colvals in Hnd. cbn [flat_map] in Hnd. rewrite Hz, Hz' in Hnd.
  exact (NoDup_head_twice _ _ Hnd).
Qed.

Lemma keq_true a b : keq a b = true -> exists z, a = Some z /\ b = Some z.
Proof. destruct a as [x|], b as [y|]; cbn; try discriminate. intros H. apply Z.eqb_eq in H. subst. eauto. Qed.

Lemma on_of_key k li rj extra l r : k <> JCross -> on_of k li rj extra l r = true ->
  exists z, ncol li l = Some z /\ ncol rj r = Some z.
Proof.
  intros Hk H. apply keq_true. unfold on_of in H. destruct k; try congruence; apply andb_true_iff in H; apply H.
Qed.

(* the flags [to_rexp] hands to XJoin mean what [wf] asks of them, as soon as the flags [u] of that side are sound *)
Lemma one_match_right k li rj extra (u : list bool) R :
  (forall j, nth j u false = true -> NoDup (colvals j R)) ->
  match k with JCross => false | _ => nth rj u false end = true ->
  forall l, (length (filter (on_of k li rj extra l) R) <= 1)%nat.
Proof.
  intros Hu E. assert (Hk : k <> JCross) by (intros ->; discriminate).
  apply (key_unique_match _ rj R (ncol li)); [apply Hu; destruct k; congruence|].
  intros l r. apply on_of_key, Hk.
Qed.

Lemma one_match_left k li rj extra (u : list bool) L :
  (forall i, nth i u false = true -> NoDup (colvals i L)) ->
  match k with JCross => false | _ => nth li u false end = true ->
  forall r, (length (filter (fun l => on_of k li rj extra l r) L) <= 1)%nat.
Proof.
  intros Hu E. assert (Hk : k <> JCross) by (intros ->; discriminate).
  apply (key_unique_match (fun r l => on_of k li rj extra l r) li L (ncol rj)); [apply Hu; destruct k; congruence|].
  intros r l H. destruct (on_of_key k li rj extra l r Hk H) as (z & Hl & Hr). eauto.
Qed.

Lemma colvals_cells i R : sub (map Some (colvals i R)) (map (fun r => nth i r None) R).
Proof.
  unfold colvals. induction R as [|r R IH]; cbn [flat_map map]; [apply sub_nil|].
  destruct (nth i r None); [apply sub_keep|apply sub_skip]; exact IH.
Qed.

Lemma in_colvals i R z : In z (colvals i R) -> exists r, In r R /\ nth i r None = Some z.
Proof. intros H. apply (in_map Some), (sub_in _ _ _ (colvals_cells i R)), in_map_iff in H as (r & Hr & H). eauto. Qed.

Lemma key_column_unique i (K : list (list (option Z))) :
  NoDup K -> (forall a b, In a K -> In b K -> nth i a None = nth i b None -> a = b) -> NoDup (colvals i K).
Proof. intros Hn Hk. apply (NoDup_map_inv Some), (sub_NoDup _ _ (colvals_cells i K)), NoDup_map_inj; assumption. Qed.

(* the flag rules of Map::schema_exprs and Join::schema, read at one position *)
Lemma nth_map_true {A} (f : A -> bool) l i :
  nth i (map f l) false = true -> exists x, nth_error l i = Some x /\ f x = true.
Proof. revert i. induction l as [|x l IH]; intros [|i]; cbn; try discriminate; eauto. Qed.

Lemma join_flag_cases (ul ur : bool) (fl fr : list bool) i :
  nth i (map (andb ur) fl ++ map (andb ul) fr) false = true ->
  (i < length fl)%nat /\ ur = true /\ nth i fl false = true \/
  exists j, i = (length fl + j)%nat /\ ul = true /\ nth j fr false = true.
Proof.
  intros H. destruct (Nat.lt_ge_cases i (length fl)) as [Hi|Hi].
  - left. rewrite app_nth1 in H by (rewrite map_length; exact Hi).
    apply nth_map_true in H as (x & Hx & H). apply andb_true_iff in H as [-> ->]. rewrite (nth_error_nth _ _ _ Hx). auto.
  - right. exists (i - length fl)%nat. rewrite app_nth2, map_length in H by (rewrite map_length; exact Hi).
    apply nth_map_true in H as (x & Hx & H). apply andb_true_iff in H as [-> ->]. rewrite (nth_error_nth _ _ _ Hx). repeat split. lia.
Qed.

Theorem unique_sound e : wfu e -> forall i, nth i (uflags e) false = true -> NoDup (colvals i (rows_c e)).
Proof.
  induction e as [s u rows|f cols lim off inp IH|key inp IH|inp IH|k li rj extra l IHl r IHr|op all l IHl r IHr];
    cbn [wfu uflags]; intros Hw i Hi.
  - apply Hw. exact Hi.
  - (* a window of the selected rows; column i of the output is column c of the input *)
    destruct Hw as (Hw & _). apply nth_map_true in Hi as (c & Hc & Hi).
    apply (sub_unique _ _ _ (rows_sel_sub _ _ _ _ _)). rewrite (colvals_map_shift i c).
    + apply (sub_unique _ _ _ (sub_filter _ _)), IH; assumption.
    + intros r _. exact (nth_error_nth _ _ _ (map_nth_error (fun c => ncol c r) _ _ Hc)).
  - (* one row per distinct key: the key column determines the row *)
    destruct i as [|[|[|i]]]; try discriminate. unfold rows_c. cbn [to_rexp rows_of].
    rewrite (colvals_map_shift 0 0); [apply key_column_unique; [apply NoDup_nodup|]|].
    + intros a b Ha Hb. apply nodup_In, in_map_iff in Ha as (x & <- & _). apply nodup_In, in_map_iff in Hb as (y & <- & _).
      cbn [nth]. congruence.
    + intros kk Hk. apply nodup_In, in_map_iff in Hk as (x & <- & _). reflexivity.
  - destruct i as [|[|i]]; discriminate.
  - (* a column of one side, when the key of the other side is unique *)
    destruct Hw as (Hwl & Hwr & _). unfold rows_c. cbn [to_rexp rows_of]. fold (rows_c l) (rows_c r).
    apply join_flag_cases in Hi as [(Hil & Hur & Hi)|(j & -> & Hul & Hi)]; rewrite uflags_length in *.
    + apply join_left_unique; [exact (rows_len l Hwl)|exact Hil| |exact (IHl Hwl i Hi)].
      intros x _. exact (one_match_right _ _ _ _ _ _ (IHr Hwr) Hur x).
    + apply join_right_unique; [exact (rows_len l Hwl)| |exact (IHr Hwr j Hi)].
      intros y _. exact (one_match_left _ _ _ _ _ _ (IHl Hwl) Hul y).
  - (* no flag survives a set operation *)
    rewrite nth_repeat in Hi. discriminate.
Qed.

(* C07 on the fragment: nothing is assumed about which rows match.
   Tables conform to their sizes, windows are non-negative, the row counts of joins and set operations fit in an i64 *)
Fixpoint wfs (e : cexp) : Prop :=
  match e with
  | QTable s _ rows => fst s <= Z.of_nat (length rows) <= snd s
  | QSel _ _ lim off i => wfs i /\ (forall x, lim = Some x -> 0 <= x) /\ (forall x, off = Some x -> 0 <= x)
  | QGroup _ i | QCount i => wfs i
  | QJoin _ _ _ _ l r => wfs l /\ wfs r /\ Z.of_nat (length (rows_c e)) <= i64_max
  | QSet _ _ l r => wfs l /\ wfs r /\ Z.of_nat (length (rows_c e)) <= i64_max
  end.

Lemma wf_to_rexp e : wfu e -> wfs e -> wf (to_rexp e).
Proof.
  induction e as [s u rows|f cols lim off inp IH|key inp IH|inp IH|k li rj extra l IHl r IHr|op all l IHl r IHr];
    cbn [wfu wfs to_rexp wf]; intros Hu Hs.
  1-4, 6: tauto.
  (* the join: the flags handed to XJoin are those of [uflags], which are sound *)
  destruct Hu as (Hul & Hur & _). destruct Hs as (Hsl & Hsr & Hmax). repeat split; auto.
  - intros E x _. exact (one_match_right _ _ _ _ _ _ (unique_sound r Hur) E x).
  - intros E y _. exact (one_match_left _ _ _ _ _ _ (unique_sound l Hul) E y).
Qed.

Theorem cexp_size_sound e : wfu e -> wfs e ->
  sizes_ok (erase (to_rexp e)) = true -> join_ok (erase (to_rexp e)) = true ->
  fst (size_of (skeleton (erase (to_rexp e)))) <= Z.of_nat (length (rows_c e)) <= snd (size_of (skeleton (erase (to_rexp e)))).
Proof. intros Hu Hs. apply eval_size_sound. apply wf_to_rexp; assumption. Qed.
